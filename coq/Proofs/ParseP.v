(* Proofs/ParseP.v — completeness of the parser model: every sentence of Spec/Grammar.v, printed with
   any choices from a well-formed AST, is parsed back to exactly that AST with nothing left. *)
From Asimap Require Import Base.Res Base.Bytes Model.Lex Spec.Grammar Model.ParseM Proofs.LexP.
From Coq Require Import Lia ZArith List Bool.
Import ListNotations.
Open Scope Z_scope.

Lemma pbind_step {A B} (p : parser A) (f : A -> parser B) s a r : p s = ROk a r -> pbind p f s = f a r.
Proof. intros H. unfold pbind. rewrite H. reflexivity. Qed.
Lemma pmap_step {A B} (g : A -> B) (p : parser A) s a r : p s = ROk a r -> pmap g p s = ROk (g a) r.
Proof. intros H. unfold pmap. rewrite (pbind_step _ _ _ _ _ H). reflexivity. Qed.

(* run the first parser of a pbind row: tac proves what it returns; psp is the step over a SP *)
Ltac pstep tac := erewrite pbind_step by tac; cbv beta iota.
Ltac psp := pstep ltac:(apply p_sp_cons).

Lemma try_lit_kw_none ch site k name r : match_ci k (bs name ++ r) = None -> try_lit k (kw ch site name ++ r) = None.
Proof. unfold try_lit, kw. apply match_ci_case_none. Qed.
Lemma peek_lit_kw_none ch site k name r : match_ci k (bs name ++ r) = None -> peek_lit k (kw ch site name ++ r) = false.
Proof. unfold peek_lit, kw. intros H. rewrite match_ci_case_none by exact H. reflexivity. Qed.

(* k and s differ, letter case aside, at a place both have: whatever follows s, k is not found at its start.
   A closed test, so that a table of keywords is swept once. *)
Fixpoint clash (k s : list Z) : bool :=
  match k, s with
  | c :: k', d :: s' => negb (py_lower d =? py_lower c) || clash k' s'
  | _, _ => false
  end.
Lemma clash_none k : forall s r, clash k s = true -> match_ci k (s ++ r) = None.
Proof.
  induction k as [|c k IH]; intros [|d s] r H; cbn [clash] in H; try discriminate H. cbn [app match_ci].
  destruct (py_lower d =? py_lower c); [apply IH; exact H|reflexivity].
Qed.
Definition clashes {A} (k : list Z) (tbl : list (list Z * A)) : bool := forallb (fun e => clash k (fst e)) tbl.

(* first_lit on a text that begins with the key k, decided from a beginning s of the text: the keys before k
   clash with s (HEADER.FIELDS.NOT comes before HEADER.FIELDS and HEADER, and clashes with them and what follows them) *)
Fixpoint first_clash {A} (tbl : list (list Z * A)) (k s : list Z) : option A :=
  match tbl with
  | [] => None
  | (k', a) :: tbl' => if beq k' k then Some a else if clash k' s then first_clash tbl' k s else None
  end.
Lemma first_clash_lit {A} (tbl : list (list Z * A)) ch site name c a r :
  first_clash tbl (bs name) (bs name ++ [c]) = Some a -> first_lit tbl (kw ch site name ++ c :: r) = Some (a, c :: r).
Proof.
  unfold kw. induction tbl as [|[k' b] tbl IH]; cbn [first_clash first_lit]; [discriminate|]. unfold try_lit.
  destruct (beq k' (bs name)) eqn:E.
  - apply beq_eq in E. subst k'. intros [= ->]. rewrite match_ci_case. reflexivity.
  - destruct (clash k' (bs name ++ [c])) eqn:C; [|discriminate]. intros H.
    rewrite match_ci_case_none; [apply IH; exact H|]. change (c :: r) with ([c] ++ r). rewrite app_assoc. apply clash_none. exact C.
Qed.

Definition keyword (p : Z -> bool) (k : list Z) : bool := forallb p k && negb (beq k []) && beq (lower_s k) k.
Lemma keyword_inv p k : keyword p k = true -> forallb p k = true /\ k <> [] /\ lower_s k = k.
Proof.
  unfold keyword. intros H. apply andb_true_iff in H. destruct H as [H Hl]. apply andb_true_iff in H. destruct H as [Hp Hn].
  repeat split; [exact Hp| |apply beq_eq; exact Hl]. intros E. rewrite E in Hn. discriminate Hn.
Qed.

Lemma kw_token_try (p : Z -> bool) ch site name r :
  (forall c, is_lower c = true -> p c = true -> p (c - 32) = true) -> keyword p (bs name) = true -> ends p r ->
  try_many1 p (kw ch site name ++ r) = Some (kw ch site name, r).
Proof.
  intros Hup K Hr. destruct (keyword_inv p _ K) as (Hall & Hne & _).
  apply try_many1_app; [apply kw_case_nonempty; exact Hne|apply kw_case_class; assumption|exact Hr].
Qed.
Lemma kw_token (p : Z -> bool) ch site name r :
  (forall c, is_lower c = true -> p c = true -> p (c - 32) = true) -> keyword p (bs name) = true -> ends p r ->
  p_many1 p (kw ch site name ++ r) = ROk (kw ch site name) r.
Proof. intros Hup K Hr. rewrite p_many1_try, kw_token_try by assumption. reflexivity. Qed.
Lemma p_atom_kw ch site name r : keyword atom_char (bs name) = true -> stops r = true ->
  p_atom (kw ch site name ++ r) = ROk (kw ch site name) r.
Proof.
  intros K Hr. unfold p_atom. apply kw_token; [apply upper_atom|exact K|apply stops_ends; [reflexivity|exact Hr]].
Qed.
Lemma kw_lower p ch site name : keyword p (bs name) = true -> lower_s (kw ch site name) = bs name.
Proof. intros K. unfold kw. rewrite kw_case_lower_s. apply (keyword_inv p _ K). Qed.

Lemma keyword_head p k : keyword p k = true -> head_in p k.
Proof.
  intros K. destruct (keyword_inv p k K) as (Hall & Hne & _). destruct k as [|c k]; [contradiction|].
  cbn [forallb] in Hall. apply andb_true_iff in Hall. apply Hall.
Qed.

(* What a table finds stands in it, so what holds of every entry is evaluated once, for the table. *)
Lemma lookup_in {A} (tbl : list (list Z * A)) k v : lookup tbl k = Some v -> In (k, v) tbl.
Proof.
  unfold lookup. destruct (find (fun e => beq k (fst e)) tbl) as [[k' v']|] eqn:F; [|discriminate].
  intros [= <-]. apply find_some in F. destruct F as [Hin Hb]. apply beq_eq in Hb. cbn [fst] in Hb. subst k'. exact Hin.
Qed.
(* The keys of a table are written bs "...", and bs goes through the unary nat_of_ascii: evaluating a letter is
   dear wherever the checker evaluates lazily.  The table of SEARCH, the longest and the most looked up, is
   therefore evaluated once, here, into numbers; what is asked of it later is asked of search_keys. *)
Definition search_keys : list (list Z * stok) := Eval cbv in search_toks.
Lemma search_toks_val : search_toks = search_keys.
Proof. vm_compute. reflexivity. Qed.
(* what a fixed table has for a literal key: lookup tbl (bs "...") = Some tok, by evaluation *)
Ltac in_table := rewrite ?search_toks_val; vm_compute; reflexivity.
Definition keywords {A} (p : Z -> bool) (tbl : list (list Z * A)) : bool := forallb (fun e => keyword p (fst e)) tbl.
Lemma lookup_keyword {A} p (tbl : list (list Z * A)) k v : keywords p tbl = true -> lookup tbl k = Some v -> keyword p k = true.
Proof. intros T L. unfold keywords in T. rewrite forallb_forall in T. apply (T _ (lookup_in tbl k v L)). Qed.

Lemma clashes_lookup {A} k (tbl : list (list Z * A)) name v r :
  clashes k tbl = true -> lookup tbl name = Some v -> match_ci k (name ++ r) = None.
Proof.
  intros C L. unfold clashes in C. rewrite forallb_forall in C. apply clash_none. apply (C _ (lookup_in tbl name v L)).
Qed.

Definition astr_head (c : Z) : bool := atom_char c || str_head c.
Definition list_head (c : Z) : bool := list_char c || str_head c.
Definition alpha_head (c : Z) : bool := is_alpha c.

Lemma r_astring_head_in form v : head_in astr_head (r_astring form v).
Proof. exact (r_tok_or_string_head_in atom_char form v). Qed.
Lemma r_mailbox_head_in ch site m : head_in astr_head (r_mailbox ch site m).
Proof. unfold r_mailbox. destruct (beq m inbox); apply r_astring_head_in. Qed.
Lemma r_list_mailbox_head_in form v : head_in list_head (r_list_mailbox form v).
Proof. exact (r_tok_or_string_head_in list_char form v). Qed.
Lemma r_pattern_head_in ch site p : head_in list_head (r_pattern ch site p).
Proof. unfold r_pattern. destruct (beq p inbox); apply r_list_mailbox_head_in. Qed.

Lemma kw_head_in ch site name : head_in is_alpha (bs name) -> head_in is_alpha (kw ch site name).
Proof.
  unfold kw. destruct (bs name) as [|c k]; [auto|]. cbn [kw_case_from head_in].
  intros H. destruct (c_kw ch site 0%nat && is_lower c) eqn:E; [|exact H].
  apply andb_true_iff in E. destruct E as [_ E]. apply upper_alpha; assumption.
Qed.

Lemma p_status_att_app ch site a r : p_status_att (r_status_att ch site a ++ r) = ROk a r.
Proof.
  unfold r_status_att, p_status_att, status_atts.
  destruct a; cbn [p_status_att_from status_name];
    repeat (rewrite try_lit_kw_none by reflexivity); rewrite try_lit_kw; reflexivity.
Qed.

Lemma r_status_att_head_in ch site a : head_in is_alpha (r_status_att ch site a).
Proof. destruct a; apply kw_head_in; reflexivity. Qed.

Lemma p_status_list_app ch site l r :
  p_paren_list_of p_status_att (r_paren (r_status_att ch site) l ++ r) = ROk l r.
Proof.
  apply (p_paren_list_of_app (fun _ => true)) with (h := is_alpha);
    [intros; apply p_status_att_app|reflexivity|intros; apply r_status_att_head_in|apply forallb_true].
Qed.

Lemma p_number_bad t : ends is_digit t -> p_number t = RBad.
Proof.
  intros H. unfold p_number, pbind, p_many1. destruct t as [|c t]; [reflexivity|]. cbn in H. cbn [span]. rewrite H. reflexivity.
Qed.

Lemma r_nums_cons2 n m l : r_nums (n :: m :: l) = r_number n ++ 46 :: r_nums (m :: l).
Proof. reflexivity. Qed.

Lemma section_nums_app : forall nums (dot : bool) t fuel,
  forallb num_ok nums = true -> ends is_digit t ->
  (if dot then nums <> [] else nums = [] \/ p_lit [46] t = RBad) ->
  Nat.lt (List.length (r_nums nums ++ (if dot then [46] else []) ++ t)) fuel ->
  section_nums fuel (r_nums nums ++ (if dot then [46] else []) ++ t) = ROk nums t.
Proof.
  induction nums as [|n nums IH]; intros dot t fuel Hok Hd Hdot Hlen; (destruct fuel as [|fuel]; [inversion Hlen|]).
  - destruct dot; [contradiction|]. cbn [r_nums app section_nums]. rewrite p_number_bad by exact Hd. reflexivity.
  - cbn [forallb] in Hok. apply andb_true_iff in Hok; destruct Hok as [Hn Hok].
    assert (He : ends is_digit ((if dot then [46] else []) ++ t)) by (destruct dot; [reflexivity|exact Hd]).
    destruct nums as [|m nums].
    + cbn [r_nums section_nums]. rewrite p_number_app by assumption. destruct dot; cbn [app] in *.
      * change (p_lit [46] (46 :: t)) with (ROk tt t). cbv iota.
        assert (E : section_nums fuel t = ROk [] t).
        { apply (IH false); [reflexivity|exact Hd|left; reflexivity|].
          rewrite app_length in Hlen. cbn [List.length] in Hlen. unfold Nat.lt in *. cbn [r_nums app]. lia. }
        rewrite E. reflexivity.
      * destruct Hdot as [Hdot|Hdot]; [discriminate|]. rewrite Hdot. reflexivity.
    + rewrite r_nums_cons2 in *. rewrite <- app_assoc in *. rewrite <- app_comm_cons in *.
      cbn [section_nums]. rewrite p_number_app by (assumption || reflexivity).
      change (p_lit [46] (46 :: r_nums (m :: nums) ++ (if dot then [46] else []) ++ t))
        with (ROk tt (r_nums (m :: nums) ++ (if dot then [46] else []) ++ t)). cbv iota.
      rewrite IH; [reflexivity|exact Hok|exact Hd|destruct dot; [discriminate|destruct Hdot; [discriminate|right; assumption]]|].
      rewrite app_length in Hlen. cbn [List.length] in Hlen. unfold Nat.lt in *. lia.
Qed.

Lemma kw_not_digit ch site name r : head_in is_alpha (bs name) -> ends is_digit (kw ch site name ++ r).
Proof.
  intros H. pose proof (kw_head_in ch site name H) as Hk.
  destruct (kw ch site name) as [|c k]; [contradiction|]. cbn in *. autounfold with chars in *. lia.
Qed.

Lemma p_header_list_app ch hdrs r : forallb str_ok hdrs = true ->
  p_paren_list_of p_astring (r_paren (fun h => r_astring (c_str ch 41 h) h) hdrs ++ r) = ROk hdrs r.
Proof.
  intros Hok. apply (p_paren_list_of_app str_ok) with (h := astr_head);
    [intros; apply p_astring_app; assumption|reflexivity|intros; apply r_astring_head_in|exact Hok].
Qed.

Lemma p_section_app ch s r : section_ok s = true -> p_section (r_section ch s ++ r) = ROk s r.
Proof.
  destruct s as [nums t]. unfold section_ok. intros H. apply andb_true_iff in H; destruct H as [Hn Ht].
  unfold p_section, r_section. napp. pstep ltac:(reflexivity).
  destruct t as [t|].
  - assert (Hnums : forall t0, ends is_digit t0 ->
              section_nums (S (List.length (r_nums nums ++ (match nums with [] => [] | _ => [46] end) ++ t0)))
                           (r_nums nums ++ (match nums with [] => [] | _ => [46] end) ++ t0) = ROk nums t0).
    { intros t0 Ht0. destruct nums as [|n nums].
      - apply (section_nums_app [] false); [exact Hn|exact Ht0|left; reflexivity|apply Nat.lt_succ_diag_r].
      - apply (section_nums_app (n :: nums) true); [exact Hn|exact Ht0|discriminate|apply Nat.lt_succ_diag_r]. }
    unfold r_sect_text.
    destruct t as [| | |neg hdrs]; cbn [sect_text_ok] in Ht.
    + napp. rewrite Hnums by (apply kw_not_digit; reflexivity). rewrite try_lit_kw_none by reflexivity.
      rewrite (first_clash_lit _ ch 40 "header" _ SxHeader) by in_table. pstep ltac:(reflexivity). reflexivity.
    + napp. rewrite Hnums by (apply kw_not_digit; reflexivity). rewrite try_lit_kw_none by reflexivity.
      rewrite (first_clash_lit _ ch 40 "text" _ SxText) by in_table. pstep ltac:(reflexivity). reflexivity.
    + napp. rewrite Hnums by (apply kw_not_digit; reflexivity). rewrite try_lit_kw_none by reflexivity.
      destruct nums as [|n nums]; [discriminate|].
      rewrite (first_clash_lit _ ch 40 "mime" _ SxMime) by in_table. pstep ltac:(reflexivity). reflexivity.
    + destruct hdrs as [|h hdrs]; [discriminate|].
      destruct neg; napp; rewrite Hnums by (apply kw_not_digit; reflexivity); rewrite try_lit_kw_none by reflexivity;
        [rewrite (first_clash_lit _ ch 40 "header.fields.not" _ SxFieldsNot) by in_table
        |rewrite (first_clash_lit _ ch 40 "header.fields" _ SxFields) by in_table];
        cbv beta iota zeta; psp; (pstep ltac:(apply p_header_list_app; exact Ht)); (pstep ltac:(reflexivity)); reflexivity.
  - napp. rewrite (section_nums_app nums false (93 :: r)); [|exact Hn|reflexivity|right; reflexivity|apply Nat.lt_succ_diag_r].
    reflexivity.
Qed.

Lemma stops_try_none k r : (k < 65 \/ 90 < k < 97) -> stop_char k = false -> stops r = true -> try_lit [k] r = None.
Proof.
  intros Hk Hs Hr. unfold try_lit. destruct r as [|c r]; [reflexivity|]. cbn in Hr.
  apply match_ci1_ne; [exact Hk|]. intros ->. congruence.
Qed.
Lemma stops_peek_none k r : (k < 65 \/ 90 < k < 97) -> stop_char k = false -> stops r = true -> peek_lit [k] r = false.
Proof. intros Hk Hs Hr. unfold peek_lit. fold (try_lit [k] r). rewrite stops_try_none by assumption. reflexivity. Qed.

Lemma p_partial_app a b r : num_ok a = true -> num_ok b = true ->
  p_partial (60 :: r_number a ++ 46 :: r_number b ++ 62 :: r) = ROk (a, b) r.
Proof.
  intros Ha Hb. unfold p_partial.
  pstep ltac:(reflexivity). pstep ltac:(apply p_number_app; [exact Ha|reflexivity]).
  pstep ltac:(reflexivity). pstep ltac:(apply p_number_app; [exact Hb|reflexivity]).
  pstep ltac:(reflexivity). reflexivity.
Qed.

Lemma fetch_toks_keywords : keywords fetch_att_char fetch_toks = true.
Proof. vm_compute. reflexivity. Qed.

Lemma fetch_tok ch name tok r : lookup fetch_toks (bs name) = Some tok -> ends fetch_att_char r ->
  p_fetch_att (kw ch 42 name ++ r) = fetch_dispatch (Some tok) r.
Proof.
  intros L Hr. pose proof (lookup_keyword _ _ _ _ fetch_toks_keywords L) as K.
  unfold p_fetch_att. pstep ltac:(apply kw_token; [apply upper_fetch|exact K|exact Hr]).
  rewrite (kw_lower fetch_att_char) by exact K. rewrite L. reflexivity.
Qed.

Lemma p_fetch_att_app ch a r : fatt_ok a = true -> stops r = true -> p_fetch_att (r_fetch_att ch a ++ r) = ROk a r.
Proof.
  intros Ha Hr. pose proof (stops_ends fetch_att_char r eq_refl Hr) as He.
  (* an attribute that is one keyword is found in the table; BODY goes on to look for "[" *)
  destruct a as [o| | | | |peek sec part]; cbn [r_fetch_att]; [destruct o; cbn [fop_name]| | | | |];
    try (erewrite fetch_tok by (in_table || exact He); reflexivity).
  - rewrite (fetch_tok _ _ TkBody); [|in_table|exact He]. cbn [fetch_dispatch].
    rewrite stops_peek_none; [reflexivity|lia|reflexivity|exact Hr].
  - cbn [fatt_ok] in Ha. apply andb_true_iff in Ha; destruct Ha as [Hsec Hpart].
    assert (Hrest : p_body_rest peek (r_section ch sec ++
                      match part with None => [] | Some (a, b) => 60 :: r_number a ++ 46 :: r_number b ++ [62] end ++ r)
                    = ROk (FBody peek sec part) r).
    { unfold p_body_rest. pstep ltac:(apply p_section_app; exact Hsec).
      destruct part as [[x y]|].
      - apply andb_true_iff in Hpart; destruct Hpart as [Hx Hy]. napp.
        change (peek_lit [60] (60 :: r_number x ++ 46 :: r_number y ++ 62 :: r)) with true. cbv iota.
        pstep ltac:(apply p_partial_app; assumption). reflexivity.
      - cbn [app]. rewrite stops_peek_none; [reflexivity|lia|reflexivity|exact Hr]. }
    assert (Hhead : forall X, ends fetch_att_char (r_section ch sec ++ X)).
    { intros X. destruct sec as [nums t]. unfold r_section. cbn [app]. reflexivity. }
    assert (Hpeek : forall X, peek_lit [91] (r_section ch sec ++ X) = true).
    { intros X. destruct sec as [nums t]. unfold r_section. cbn [app]. reflexivity. }
    destruct peek; napp.
    + rewrite (fetch_tok _ _ TkBodyPeek); [|in_table|apply Hhead]. apply Hrest.
    + rewrite (fetch_tok _ _ TkBody); [|in_table|apply Hhead]. cbn [fetch_dispatch].
      rewrite Hpeek. apply Hrest.
Qed.

Lemma fop_eqb_eq a b : fop_eqb a b = true -> a = b.
Proof. destruct a, b; cbn; intros H; try discriminate; reflexivity. Qed.
Lemma fatt_simple_eqb_eq a b : fatt_simple_eqb a b = true -> a = b.
Proof.
  destruct a, b; cbn; intros H; try discriminate; try reflexivity. f_equal. apply fop_eqb_eq. exact H.
Qed.
Lemma fatts_eqb_eq : forall a b, fatts_eqb a b = true -> a = b.
Proof.
  induction a as [|x a IH]; intros [|y b] H; cbn in H; try discriminate; [reflexivity|].
  apply andb_true_iff in H; destruct H as [H1 H2]. f_equal; [apply fatt_simple_eqb_eq; exact H1|apply IH; exact H2].
Qed.

Lemma fetch_att_kw ch a r :
  exists name tok X, r_fetch_att ch a ++ r = kw ch 42 name ++ X /\ lookup fetch_toks (bs name) = Some tok.
Proof.
  destruct a as [o| | | | |peek sec part]; cbn [r_fetch_att]; [destruct o| | | | |destruct peek; rewrite <- app_assoc];
    cbn [fop_name]; do 3 eexists; (split; [reflexivity|in_table]).
Qed.

Lemma fetch_toks_not_macro :
  clashes [40] fetch_toks = true /\ clashes (bs "all") fetch_toks = true
  /\ clashes (bs "full") fetch_toks = true /\ clashes (bs "fast") fetch_toks = true.
Proof. repeat split; vm_compute; reflexivity. Qed.

Lemma fetch_att_not_macro ch a r :
  peek_lit [40] (r_fetch_att ch a ++ r) = false /\ try_lit (bs "all") (r_fetch_att ch a ++ r) = None
  /\ try_lit (bs "full") (r_fetch_att ch a ++ r) = None /\ try_lit (bs "fast") (r_fetch_att ch a ++ r) = None.
Proof.
  destruct (fetch_att_kw ch a r) as (name & tok & X & -> & L). destruct fetch_toks_not_macro as (C1 & C2 & C3 & C4).
  repeat split; [apply peek_lit_kw_none; apply (clashes_lookup _ _ _ _ _ C1 L)|apply try_lit_kw_none ..];
    [apply (clashes_lookup _ _ _ _ _ C2 L)|apply (clashes_lookup _ _ _ _ _ C3 L)|apply (clashes_lookup _ _ _ _ _ C4 L)].
Qed.

Lemma r_fetch_att_head_in ch a : head_in is_alpha (r_fetch_att ch a).
Proof.
  destruct a as [o| | | | |peek sec part]; cbn [r_fetch_att];
    [destruct o| | | | |destruct peek; apply head_in_app]; apply kw_head_in; reflexivity.
Qed.

Lemma p_fetch_atts_app ch l r : forallb fatt_ok l = true -> stops r = true ->
  p_fetch_atts (r_fetch_atts ch l ++ r) = ROk l r.
Proof.
  intros Hl Hr.
  assert (Hparen : p_fetch_atts (r_paren (r_fetch_att ch) l ++ r) = ROk l r).
  { unfold p_fetch_atts. unfold r_paren at 1. cbn [app]. change (peek_lit [40] (40 :: (sep_by (r_fetch_att ch) l ++ [41]) ++ r)) with true.
    cbv iota. change (40 :: (sep_by (r_fetch_att ch) l ++ [41]) ++ r) with (r_paren (r_fetch_att ch) l ++ r).
    apply (p_paren_list_of_app fatt_ok) with (h := is_alpha);
      [intros; apply p_fetch_att_app; assumption|reflexivity|intros; apply r_fetch_att_head_in|exact Hl]. }
  unfold r_fetch_atts.
  destruct (c_opt ch 43 && fatts_eqb l macro_all) eqn:E1.
  { apply andb_true_iff in E1; destruct E1 as [_ E1]. apply fatts_eqb_eq in E1. subst l.
    unfold p_fetch_atts. rewrite peek_lit_kw_none by reflexivity. rewrite try_lit_kw. reflexivity. }
  destruct (c_opt ch 43 && fatts_eqb l macro_fast) eqn:E2.
  { apply andb_true_iff in E2; destruct E2 as [_ E2]. apply fatts_eqb_eq in E2. subst l.
    unfold p_fetch_atts. rewrite peek_lit_kw_none by reflexivity. rewrite !try_lit_kw_none by reflexivity.
    rewrite try_lit_kw. reflexivity. }
  destruct (c_opt ch 43 && fatts_eqb l macro_full) eqn:E3.
  { apply andb_true_iff in E3; destruct E3 as [_ E3]. apply fatts_eqb_eq in E3. subst l.
    unfold p_fetch_atts. rewrite peek_lit_kw_none by reflexivity. rewrite !try_lit_kw_none by reflexivity.
    rewrite try_lit_kw. reflexivity. }
  destruct l as [|a [|b l]]; try exact Hparen.
  destruct (c_opt ch 45); [|exact Hparen].
  destruct (fetch_att_not_macro ch a r) as [P1 [P2 [P3 P4]]].
  unfold p_fetch_atts. rewrite P1, P2, P3, P4.
  cbn [forallb] in Hl. rewrite andb_true_r in Hl.
  apply (pmap_step (fun x => [x])), p_fetch_att_app; assumption.
Qed.

Lemma search_toks_keywords : keywords search_char search_toks = true.
Proof. in_table. Qed.
Lemma search_toks_not_charset : clashes (bs "charset") search_toks = true.
Proof. in_table. Qed.

Lemma search_tok nested ch name tok r : lookup search_toks (bs name) = Some tok -> stops r = true ->
  search_key_body nested (kw ch 50 name ++ r) = search_dispatch nested (Some tok) r.
Proof.
  intros L Hr. pose proof (lookup_keyword _ _ _ _ search_toks_keywords L) as K. unfold search_key_body.
  assert (Hk : head_in is_alpha (kw ch 50 name)) by (apply kw_head_in, (keyword_head search_char); exact K).
  unfold peek_lit. rewrite (match_ci1_head is_alpha 40); [|lia|reflexivity|exact Hk].
  rewrite kw_token_try; [|apply upper_alpha|exact K|apply stops_ends; [reflexivity|exact Hr]].
  rewrite (kw_lower search_char) by exact K. rewrite L. reflexivity.
Qed.

Lemma search_kw_arg {A} nested ch name tok (p : parser A) (g : A -> skey) txt a r :
  lookup search_toks (bs name) = Some tok -> search_dispatch nested (Some tok) = (p_sp ;;; v <- p ;; pret (g v)) ->
  p (txt ++ r) = ROk a r ->
  search_key_body nested ((kw ch 50 name ++ 32 :: txt) ++ r) = ROk (g a) r.
Proof.
  intros L D P. rewrite <- app_assoc. cbn [app]. rewrite (search_tok _ _ _ tok) by (exact L || reflexivity). rewrite D.
  psp. pstep ltac:(exact P). reflexivity.
Qed.

(* The spelling tables of Spec/Grammar.v are chains of comparisons: each branch fixes the key and the keyword,
   and the table of SEARCH has the keyword with what it stands for. *)
Ltac spelling_cases :=
  repeat (let E := fresh "E" in
          match goal with |- context [beq ?a ?b] => destruct (beq a b) eqn:E end;
          [apply beq_eq in E; intros [= <-]; subst; eexists; split; [in_table|reflexivity]|clear E]);
  discriminate.

Lemma sysflag_word f name : sysflag_key f = Some name ->
  exists tok, lookup search_toks (bs name) = Some tok /\ forall nested, search_dispatch nested (Some tok) = pret (KKeyword f).
Proof. unfold sysflag_key. spelling_cases. Qed.
Lemma unflag_word f name : unflag_key f = Some name ->
  exists tok, lookup search_toks (bs name) = Some tok
              /\ forall nested, search_dispatch nested (Some tok) = pret (KNot (KKeyword f)).
Proof. unfold unflag_key. spelling_cases. Qed.
Lemma hdr_word h name : hdr_key h = Some name ->
  exists tok, lookup search_toks (bs name) = Some tok
              /\ forall nested, search_dispatch nested (Some tok) = (p_sp ;;; v <- p_lower_astring ;; pret (KHeader h v)).
Proof. unfold hdr_key. spelling_cases. Qed.
Lemma sdate_word w : lookup search_toks (bs (sdate_name w)) = Some (SkDate w).
Proof. destruct w; in_table. Qed.

Definition set_head (c : Z) : bool := is_digit c || (c =? 42).
Lemma r_set_head l : set_ok l = true -> head_in set_head (r_set l).
Proof.
  unfold set_ok. destruct l as [|e l]; [discriminate|]. intros H. cbn [forallb] in H. apply andb_true_iff in H.
  destruct H as [He _].
  assert (Hs : forall a, satom_ok a = true -> head_in set_head (r_satom a)).
  { intros [|n] Hn; cbn [r_satom]; [reflexivity|]. cbn [satom_ok] in Hn.
    pose proof (r_number_nonempty n) as Hne.
    assert (Hd : forallb is_digit (r_number n) = true) by (apply r_number_digits; apply (num_ok_inv n Hn)).
    destruct (r_number n) as [|c t]; [contradiction|]. cbn [forallb] in Hd. apply andb_true_iff in Hd. cbn.
    unfold set_head. destruct Hd as [Hd _]. rewrite Hd. reflexivity. }
  assert (He' : head_in set_head (r_selt e)).
  { destruct e as [|n|a b]; cbn [r_selt selt_ok] in *; [reflexivity|apply (Hs (ANum n)); exact He|].
    apply andb_true_iff in He. destruct He as [Ha _]. apply head_in_app. apply Hs. exact Ha. }
  destruct l as [|e' l]; [exact He'|].
  change (r_set (e :: e' :: l)) with (r_selt e ++ 44 :: r_set (e' :: l)). apply head_in_app. exact He'.
Qed.

Lemma set_head_not_alpha s r : head_in set_head s -> try_many1 search_char (s ++ r) = None.
Proof.
  destruct s as [|c s]; [intros []|]. cbn [head_in app]. intros H. apply try_many1_none.
  unfold set_head in H. autounfold with chars in *. lia.
Qed.

Lemma is_new_eq l : is_new l = true -> l = [KKeyword (bs "\Recent"); KNot (KKeyword (bs "\Seen"))].
Proof.
  unfold is_new. destruct l as [|x [|y [|z l]]]; try discriminate; destruct x; try discriminate;
    destruct y as [| | | | | | | |y| | | |]; try discriminate; destruct y; try discriminate.
  intros H. apply andb_true_iff in H. destruct H as [H1 H2]. apply beq_eq in H1, H2. subst. reflexivity.
Qed.

(* How a printed search key starts: with a keyword other than CHARSET, with "(", or with a sequence set.
   That tells it from ")" and from the CHARSET argument of SEARCH. *)
Definition skey_head (c : Z) : bool := is_alpha c || (c =? 40) || set_head c.
Definition key_start (t : list Z) : Prop :=
  head_in skey_head t /\ forall r, try_lit (bs "charset") (t ++ r) = None.

Lemma key_start_kw ch name X :
  head_in is_alpha (bs name) -> (forall r, match_ci (bs "charset") (bs name ++ r) = None) -> key_start (kw ch 50 name ++ X).
Proof.
  intros Hh Hc. split.
  - apply head_in_app. apply (head_in_impl is_alpha); [intros c Hc'; unfold skey_head; rewrite Hc'; reflexivity|].
    apply kw_head_in. exact Hh.
  - intros r. rewrite <- app_assoc. apply try_lit_kw_none. exact (Hc _).
Qed.
Lemma key_start_tok ch name tok X : lookup search_toks (bs name) = Some tok -> key_start (kw ch 50 name ++ X).
Proof.
  intros L. apply key_start_kw.
  - apply (keyword_head search_char). apply (lookup_keyword _ _ _ _ search_toks_keywords L).
  - intros r. apply (clashes_lookup _ _ _ _ _ search_toks_not_charset L).
Qed.
Lemma key_start_nil t : key_start (t ++ []) -> key_start t.
Proof. rewrite app_nil_r. auto. Qed.

Lemma key_start_set l : set_ok l = true -> key_start (r_set l).
Proof.
  intros Hl. pose proof (r_set_head l Hl) as Hh. split.
  - eapply head_in_impl; [|exact Hh]. intros c Hc. unfold skey_head. rewrite Hc, orb_true_r. reflexivity.
  - intros r. destruct (r_set l) as [|c t]; [contradiction|]. cbn [app]. cbn in Hh.
    unfold try_lit. change (bs "charset") with (99 :: bs "harset"). cbn [match_ci].
    destruct (Z.eqb_spec (py_lower c) (py_lower 99)) as [Ec|Ec]; [|reflexivity]. exfalso.
    change (py_lower 99) with 99 in Ec. pose proof (py_lower_cases c). unfold set_head in Hh. autounfold with chars in Hh. lia.
Qed.

(* choice site 59 of Spec/Grammar.v: whether a search key that has a one-token spelling (FROM x, UNSEEN, UNKEYWORD f,
   NEW ...) is printed with it; skey_ok and cmd_okb take it as their first argument *)
Notation alt_spellings ch := (c_opt ch 59).

Lemma r_skey_start ch d k : skey_ok (alt_spellings ch) d k = true -> key_start (r_skey ch k).
Proof.
  intros Hk.
  destruct k as [|f|h s|w dt|s|s|n|n|k'|a b|l|l|l]; cbn [r_skey];
    try solve [apply key_start_kw; reflexivity].
  - apply key_start_nil, key_start_kw; reflexivity.
  - destruct (sysflag_key f) as [name|] eqn:E; [|apply key_start_kw; reflexivity].
    destruct (sysflag_word f name E) as (tok & L & _). apply key_start_nil. apply (key_start_tok ch name tok _ L).
  - destruct (if alt_spellings ch then hdr_key h else None) as [name|] eqn:E; [|apply key_start_kw; reflexivity].
    destruct (alt_spellings ch); [|discriminate]. destruct (hdr_word h name E) as (tok & L & _). apply (key_start_tok ch name tok _ L).
  - apply (key_start_tok ch _ _ _ (sdate_word w)).
  - destruct (if alt_spellings ch then not_alt ch k' else None) as [txt|] eqn:E; [|apply key_start_kw; reflexivity].
    destruct (alt_spellings ch); [|discriminate]. unfold not_alt in E. destruct k' as [|f| | | | | | | | | | |]; try discriminate.
    destruct (unflag_key f) as [name|] eqn:Eu.
    + replace txt with (kw ch 50 name) by congruence. destruct (unflag_word f name Eu) as (tok & L & _).
      apply key_start_nil. apply (key_start_tok ch name tok _ L).
    + destruct (is_atom f); [|discriminate]. replace txt with (kw ch 50 "unkeyword" ++ 32 :: f) by congruence.
      apply key_start_kw; reflexivity.
  - destruct (alt_spellings ch && is_new l); [apply key_start_nil, key_start_kw; reflexivity|]. split; reflexivity.
  - apply key_start_set. exact Hk.
Qed.

Lemma r_skey_head_in ch d k : skey_ok (alt_spellings ch) d k = true -> head_in skey_head (r_skey ch k).
Proof. intros H. apply (r_skey_start ch d k H). Qed.

Lemma skey_not_charset ch d k r : skey_ok (alt_spellings ch) d k = true -> try_lit (bs "charset") (r_skey ch k ++ r) = None.
Proof. intros H. apply (r_skey_start ch d k H). Qed.

Lemma go_sep_by ch l :
  (fix go (l : list skey) : list Z :=
     match l with
     | [] => []
     | [x] => r_skey ch x
     | x :: (_ :: _) as rest => r_skey ch x ++ 32 :: go rest
     end) l = sep_by (r_skey ch) l.
Proof. induction l as [|x [|y l] IH]; try reflexivity. rewrite sep_by_cons2. rewrite <- IH. reflexivity. Qed.

Lemma lowered_ok_inv s : lowered_ok s = true -> lower_s s = s /\ str_ok s = true.
Proof. unfold lowered_ok. intros H. apply andb_true_iff in H. destruct H as [H1 H2]. split; [apply beq_eq; exact H1|exact H2]. Qed.

Lemma p_lower_astring_app form v r : lowered_ok v = true -> stops r = true ->
  p_lower_astring (r_astring form v ++ r) = ROk v r.
Proof.
  intros Hv Hr. destruct (lowered_ok_inv v Hv) as [H1 H2]. unfold p_lower_astring, pmap.
  pstep ltac:(apply p_astring_app; assumption). unfold pret. rewrite H1. reflexivity.
Qed.

Lemma p_search_key_unfold d :
  p_search_key d = search_key_body (match d with O => pfail | S d' => p_search_key d' end).
Proof. destruct d; reflexivity. Qed.

Lemma not_alt_ok_some ch k : not_alt_ok k = true -> exists txt, not_alt ch k = Some txt.
Proof.
  unfold not_alt_ok, not_alt. destruct k; try discriminate. destruct (unflag_key k); [eauto|].
  intros H. rewrite H. eauto.
Qed.

(* One level of skey_ok: q is what the keys one level down satisfy.  skey_ok at depth d + 1 is this with
   skey_ok at depth d for q, and at depth 0 with the predicate that nothing satisfies, as search_key_body
   is p_search_key with the parser one level down for `nested`. *)
Definition skey_ok1 (alt : bool) (q : skey -> bool) (k : skey) : bool :=
  match k with
  | KNot k' => (alt && not_alt_ok k') || q k'
  | KOr a b => q a && q b
  | KAnd l => (alt && is_new l) || match l with [_] => false | [] => true | _ => forallb q l end
  | _ => skey_ok alt 0 k
  end.
Lemma skey_ok_S alt d k : skey_ok alt (S d) k = skey_ok1 alt (skey_ok alt d) k.
Proof. destruct k; reflexivity. Qed.
Lemma skey_ok_0 alt k : skey_ok alt 0 k = skey_ok1 alt (fun _ => false) k.
Proof. destruct k as [| | | | | | | | | |[|x [|y l]]| |]; reflexivity. Qed.

Lemma alt_or_mono (a a' b c c' : bool) : (a = true -> a' = true) -> (c = true -> c' = true) ->
  (a && b) || c = true -> (a' && b) || c' = true.
Proof.
  intros Ha Hc H. apply orb_true_iff in H. apply orb_true_iff. destruct H as [H|H]; [left|right; exact (Hc H)].
  apply andb_true_iff in H. destruct H as [H1 H2]. rewrite (Ha H1), H2. reflexivity.
Qed.

Lemma skey_ok1_mono (alt alt' : bool) (q q' : skey -> bool) k :
  (alt = true -> alt' = true) -> (forall x, q x = true -> q' x = true) ->
  skey_ok1 alt q k = true -> skey_ok1 alt' q' k = true.
Proof.
  intros Ha Hq. destruct k as [|f|h s|w dt|s|s|n|n|k'|a c|l|l|l]; cbn [skey_ok1 skey_ok]; try (intros H; exact H).
  - apply alt_or_mono; [exact Ha|apply Hq].
  - intros H. apply andb_true_iff in H. destruct H as [H1 H2]. rewrite (Hq _ H1), (Hq _ H2). reflexivity.
  - apply alt_or_mono; [exact Ha|]. destruct l as [|x [|y l]]; [auto|auto|apply forallb_impl; exact Hq].
Qed.

Lemma skey_ok_alt b : forall d k, skey_ok false d k = true -> skey_ok b d k = true.
Proof.
  induction d as [|d IH]; intros k; rewrite ?skey_ok_0, ?skey_ok_S; apply skey_ok1_mono; auto; discriminate.
Qed.
Lemma skey_ok_mono : forall d k, skey_ok true d k = true -> skey_ok true (S d) k = true.
Proof.
  induction d as [|d IH]; intros k.
  - rewrite skey_ok_0, skey_ok_S. apply skey_ok1_mono; [auto|discriminate].
  - rewrite (skey_ok_S true (S d)), (skey_ok_S true d). apply skey_ok1_mono; [auto|exact IH].
Qed.

Lemma search_key_body_app ch (nested : parser skey) (q : skey -> bool) :
  (forall k r, q k = true -> stops r = true -> nested (r_skey ch k ++ r) = ROk k r) ->
  (forall k, q k = true -> head_in skey_head (r_skey ch k)) ->
  forall k r, stops r = true -> skey_ok1 (alt_spellings ch) q k = true ->
    search_key_body nested (r_skey ch k ++ r) = ROk k r.
Proof.
  intros Hn Hhd k r Hr Hk.
  destruct k as [|f|h s|w dt|s|s|n|n|k'|a b|l|l|l]; cbn [skey_ok1 skey_ok] in Hk; cbn [r_skey].
  - rewrite (search_tok _ _ _ SkAll) by (exact Hr || in_table). reflexivity.
  - destruct (sysflag_key f) as [name|] eqn:E.
    + destruct (sysflag_word f name E) as (tok & L & D). rewrite (search_tok _ _ _ tok), D by assumption. reflexivity.
    + apply (search_kw_arg _ _ "keyword" SkKeyword p_atom KKeyword); [in_table|reflexivity|apply p_atom_app; assumption].
  - apply andb_true_iff in Hk; destruct Hk as [Hh Hs].
    destruct (if alt_spellings ch then hdr_key h else None) as [name|] eqn:E.
    + destruct (alt_spellings ch); [|discriminate]. destruct (hdr_word h name E) as (tok & L & D).
      apply (search_kw_arg _ _ name tok p_lower_astring (KHeader h)); [exact L|apply D|apply p_lower_astring_app; assumption].
    + napp. rewrite (search_tok _ _ _ SkHeader); [|in_table|reflexivity]. cbn [search_dispatch].
      psp. pstep ltac:(apply p_lower_astring_app; [exact Hh|reflexivity]). psp.
      pstep ltac:(apply p_lower_astring_app; [exact Hs|exact Hr]). reflexivity.
  - apply (search_kw_arg _ _ (sdate_name w) (SkDate w) p_date (KDate w)); [apply sdate_word|reflexivity|apply p_date_app; exact Hk].
  - apply (search_kw_arg _ _ "body" SkBody p_lower_astring KBody); [in_table|reflexivity|apply p_lower_astring_app; assumption].
  - apply (search_kw_arg _ _ "text" SkText p_lower_astring KText); [in_table|reflexivity|apply p_lower_astring_app; assumption].
  - apply (search_kw_arg _ _ "larger" SkLarger p_number KLarger); [in_table|reflexivity|].
    apply p_number_app; [exact Hk|apply stops_ends; [reflexivity|exact Hr]].
  - apply (search_kw_arg _ _ "smaller" SkSmaller p_number KSmaller); [in_table|reflexivity|].
    apply p_number_app; [exact Hk|apply stops_ends; [reflexivity|exact Hr]].
  - (* KNot: a one-token spelling, or NOT and the key *)
    destruct (if alt_spellings ch then not_alt ch k' else None) as [txt|] eqn:E.
    + destruct (alt_spellings ch); [|discriminate]. unfold not_alt in E. destruct k' as [|f| | | | | | | | | | |]; try discriminate.
      destruct (unflag_key f) as [name|] eqn:Eu.
      * replace txt with (kw ch 50 name) by congruence.
        destruct (unflag_word f name Eu) as (tok & L & D). rewrite (search_tok _ _ _ tok), D by assumption. reflexivity.
      * destruct (is_atom f) eqn:A; [|discriminate]. replace txt with (kw ch 50 "unkeyword" ++ 32 :: f) by congruence.
        apply (search_kw_arg _ _ "unkeyword" SkUnkeyword p_atom (fun f => KNot (KKeyword f))); [in_table|reflexivity|].
        apply p_atom_app; assumption.
    + apply orb_true_iff in Hk. destruct Hk as [Hk|Hk].
      * apply andb_true_iff in Hk. destruct Hk as [Ha Hb]. rewrite Ha in E.
        destruct (not_alt_ok_some ch k' Hb) as [txt Et]. congruence.
      * apply (search_kw_arg _ _ "not" SkNot nested KNot); [in_table|reflexivity|apply Hn; assumption].
  - apply andb_true_iff in Hk. destruct Hk as [Ha Hb]. napp. rewrite (search_tok _ _ _ SkOr); [|in_table|reflexivity].
    cbn [search_dispatch].
    psp. pstep ltac:(apply Hn; [exact Ha|reflexivity]). psp. pstep ltac:(apply Hn; assumption). reflexivity.
  - (* KAnd: NEW, or the keys in parentheses *)
    destruct (alt_spellings ch && is_new l) eqn:En.
    + apply andb_true_iff in En. destruct En as [_ En]. apply is_new_eq in En. subst l.
      rewrite (search_tok _ _ _ SkNew) by (exact Hr || in_table). reflexivity.
    + cbn [orb] in Hk. rewrite go_sep_by. unfold search_key_body.
      change (peek_lit [40] ((40 :: sep_by (r_skey ch) l ++ [41]) ++ r)) with true. cbv iota.
      change (40 :: sep_by (r_skey ch) l ++ [41]) with (r_paren (r_skey ch) l).
      destruct l as [|x [|y l]]; [reflexivity|discriminate Hk|].
      rewrite (p_paren_list_of_app q _ _ Hn skey_head) by (assumption || reflexivity). reflexivity.
  - unfold search_key_body. unfold peek_lit.
    rewrite (match_ci1_head set_head 40) by (try lia; try reflexivity; apply r_set_head; exact Hk).
    rewrite set_head_not_alpha by (apply r_set_head; exact Hk).
    apply (pmap_step KMsgSet), p_msg_set_app; assumption.
  - apply (search_kw_arg _ _ "uid" SkUid p_msg_set KUid); [in_table|reflexivity|apply p_msg_set_app; assumption].
Qed.

Lemma p_search_key_app ch : forall d k r, skey_ok (alt_spellings ch) d k = true -> stops r = true ->
  p_search_key d (r_skey ch k ++ r) = ROk k r.
Proof.
  induction d as [|d IH]; intros k r Hk Hr; rewrite p_search_key_unfold.
  - rewrite skey_ok_0 in Hk. apply (search_key_body_app ch pfail (fun _ => false)); [discriminate|discriminate|exact Hr|exact Hk].
  - rewrite skey_ok_S in Hk.
    apply (search_key_body_app ch (p_search_key d) (skey_ok (alt_spellings ch) d)); [intros; apply IH; assumption|apply r_skey_head_in|exact Hr|exact Hk].
Qed.

Definition sel_name (t : seltok) : string :=
  match t with
  | SelSubscribed => "subscribed" | SelRemote => "remote" | SelRecursive => "recursivematch" | SelSpecial => "special-use"
  end%string.
Definition sel_items (o : sel_opts) : list seltok :=
  (if so_subscribed o then [SelSubscribed] else []) ++ (if so_remote o then [SelRemote] else [])
  ++ (if so_recursive o then [SelRecursive] else []) ++ (if so_special o then [SelSpecial] else []).

Lemma sel_toks_keywords : keywords atom_char sel_toks = true.
Proof. vm_compute. reflexivity. Qed.

Lemma p_sel_item_app ch t r : stops r = true -> p_sel_item (kw ch 20 (sel_name t) ++ r) = ROk t r.
Proof.
  intros Hr. assert (L : lookup sel_toks (bs (sel_name t)) = Some t) by (destruct t; in_table).
  pose proof (lookup_keyword _ _ _ _ sel_toks_keywords L) as K. unfold p_sel_item.
  pstep ltac:(apply p_atom_kw; [exact K|exact Hr]). rewrite (kw_lower atom_char) by exact K. rewrite L. reflexivity.
Qed.

Lemma r_sel_opts_items ch o :
  r_sel_opts ch o = match sel_items o with
                    | [] => []
                    | l => r_paren (fun t => kw ch 20 (sel_name t)) l ++ [32]
                    end.
Proof. destruct o as [[] [] [] []]; reflexivity. Qed.
Lemma sel_items_fold o : fold_left sel_add (sel_items o) sel_none = o.
Proof. destruct o as [[] [] [] []]; reflexivity. Qed.

Lemma p_sel_part ch o X : sel_ok o = true -> head_in astr_head X ->
  p_list_sel (r_sel_opts ch o ++ X) = ROk o X.
Proof.
  intros Hok HX. rewrite r_sel_opts_items. unfold p_list_sel.
  destruct (sel_items o) as [|t items] eqn:E.
  - cbn [app]. unfold peek_lit. rewrite <- (app_nil_r X). rewrite (match_ci1_head astr_head 40); [|lia|reflexivity|exact HX].
    rewrite app_nil_r. rewrite <- (sel_items_fold o), E. reflexivity.
  - assert (Hpk : peek_lit [40] ((r_paren (fun t0 => kw ch 20 (sel_name t0)) (t :: items) ++ [32]) ++ X) = true) by reflexivity.
    rewrite Hpk. rewrite <- app_assoc.
    assert (Hsel : p_select_options (r_paren (fun t0 => kw ch 20 (sel_name t0)) (t :: items) ++ [32] ++ X) = ROk o ([32] ++ X)).
    { unfold p_select_options.
      pstep ltac:(apply (p_paren_list_of_app (fun _ => true)) with (h := is_alpha);
                  [intros; apply p_sel_item_app; assumption|reflexivity
                  |intros x _; destruct x; apply kw_head_in; reflexivity|apply forallb_true]).
      rewrite <- E, sel_items_fold.
      replace (so_recursive o && negb (so_subscribed o || so_special o)) with false
        by (unfold sel_ok in Hok; destruct (so_recursive o), (so_subscribed o), (so_special o); cbn in *; congruence).
      reflexivity. }
    pstep ltac:(exact Hsel). cbn [app]. psp. reflexivity.
Qed.

Definition ret_name (t : rettok) : string :=
  match t with RetSubscribed => "subscribed" | RetChildren => "children" | RetSpecial => "special-use" end%string.
Definition r_retitem (ch : choices) (i : retitem) : list Z :=
  match i with
  | RtOpt t => kw ch 21 (ret_name t)
  | RtStatus st => kw ch 21 "status" ++ 32 :: r_paren (r_status_att ch 22) st
  end.
Definition ret_items (o : ret_opts) (st : list status_att) : list retitem :=
  (if ro_subscribed o then [RtOpt RetSubscribed] else []) ++ (if ro_children o then [RtOpt RetChildren] else [])
  ++ (if ro_status o then [RtStatus st] else []) ++ (if ro_special o then [RtOpt RetSpecial] else []).

Definition retitem_ok (i : retitem) : bool := match i with RtStatus [] => false | _ => true end.

Lemma ret_toks_keywords : keywords atom_char ret_toks = true.
Proof. vm_compute. reflexivity. Qed.

Lemma p_ret_item_app ch i r : retitem_ok i = true -> stops r = true ->
  p_ret_item (r_retitem ch i ++ r) = ROk i r.
Proof.
  intros Hi Hr. unfold p_ret_item. destruct i as [t|st].
  - assert (L : lookup ret_toks (bs (ret_name t)) = Some t /\ beq (bs (ret_name t)) (bs "status") = false)
      by (destruct t; split; in_table).
    destruct L as [L Hs]. pose proof (lookup_keyword _ _ _ _ ret_toks_keywords L) as K.
    change (r_retitem ch (RtOpt t)) with (kw ch 21 (ret_name t)).
    pstep ltac:(apply p_atom_kw; [exact K|exact Hr]). rewrite (kw_lower atom_char) by exact K. rewrite Hs, L. reflexivity.
  - assert (K : keyword atom_char (bs "status") = true) by reflexivity.
    cbn [r_retitem]. napp. pstep ltac:(apply p_atom_kw; [exact K|reflexivity]).
    rewrite (kw_lower atom_char) by exact K. rewrite beq_refl. cbv iota.
    psp. pstep ltac:(apply p_status_list_app). destruct st; [discriminate Hi|reflexivity].
Qed.

Lemma r_ret_opts_items ch o st :
  r_ret_opts ch o st = match ret_items o st with
                       | [] => []
                       | l => 32 :: kw ch 23 "return" ++ 32 :: r_paren (r_retitem ch) l
                       end.
Proof. destruct o as [[] [] [] []]; reflexivity. Qed.
Lemma ret_items_fold o st : (if ro_status o then True else st = []) ->
  fold_left ret_apply (ret_items o st) (ret_none, []) = (o, st).
Proof. destruct o as [[] [] [] []]; cbn; intros H; try subst st; reflexivity. Qed.

Lemma ret_items_status o st : (if ro_status o then st <> [] else st = []) -> forallb retitem_ok (ret_items o st) = true.
Proof. destruct o as [[] [] [] []], st; cbn; intros H; congruence. Qed.

Lemma p_ret_part ch o st r : (if ro_status o then st <> [] else st = []) -> try_lit sp r = None ->
  p_list_ret (r_ret_opts ch o st ++ r) = ROk (o, st) r.
Proof.
  intros Hst Hsp. rewrite r_ret_opts_items. unfold p_list_ret.
  assert (Hfold : fold_left ret_apply (ret_items o st) (ret_none, []) = (o, st)).
  { apply ret_items_fold. destruct (ro_status o); [exact I|exact Hst]. }
  pose proof (ret_items_status o st Hst) as Hno.
  destruct (ret_items o st) as [|i items] eqn:E.
  - cbn [app]. rewrite Hsp. rewrite <- Hfold. reflexivity.
  - napp. change (try_lit sp (32 :: kw ch 23 "return" ++ 32 :: r_paren (r_retitem ch) (i :: items) ++ r))
      with (Some (kw ch 23 "return" ++ 32 :: r_paren (r_retitem ch) (i :: items) ++ r)). cbv iota.
    pstep ltac:(apply p_lit_kw). psp. unfold p_return_options.
    pstep ltac:(apply (p_paren_list_of_app retitem_ok) with (h := is_alpha);
                [intros; apply p_ret_item_app; assumption|reflexivity
                |intros x _; destruct x as [[]|]; cbn [r_retitem]; try apply head_in_app; apply kw_head_in; reflexivity
                |exact Hno]).
    unfold pret. rewrite Hfold. reflexivity.
Qed.

Lemma dict_put_new {V} (d : list (list Z * V)) k v :
  existsb (fun e => beq k (fst e)) d = false -> dict_put d k v = d ++ [(k, v)].
Proof.
  induction d as [|[k' v'] d IH]; cbn [dict_put existsb app fst]; [reflexivity|]. intros H.
  apply orb_false_iff in H. destruct H as [H1 H2]. rewrite H1, (IH H2). reflexivity.
Qed.

Lemma dict_fold {V} (l : list (list Z * V)) : forall acc,
  keys_distinct l = true -> (forall e, In e l -> existsb (fun a => beq (fst e) (fst a)) acc = false) ->
  fold_left (fun d kv => dict_put d (fst kv) (snd kv)) l acc = acc ++ l.
Proof.
  induction l as [|[k v] l IH]; intros acc Hd Hacc; cbn [fold_left]; [rewrite app_nil_r; reflexivity|].
  cbn [keys_distinct] in Hd. apply andb_true_iff in Hd. destruct Hd as [Hk Hd]. apply negb_true_iff in Hk.
  cbn [fst snd]. rewrite dict_put_new by (apply (Hacc (k, v)); left; reflexivity).
  rewrite IH; [rewrite <- app_assoc; reflexivity|exact Hd|].
  intros e Hin. rewrite existsb_app. rewrite (Hacc e) by (right; exact Hin). cbn [existsb fst orb].
  rewrite orb_false_r. rewrite beq_sym.
  destruct (beq k (fst e)) eqn:E; [|reflexivity].
  assert (existsb (fun e0 => beq k (fst e0)) l = true) by (apply existsb_exists; exists e; split; assumption).
  congruence.
Qed.

Lemma try_nil_string form v r : try_lit (bs "nil") (r_string form v ++ r) = None.
Proof.
  pose proof (r_string_head_in form v) as H. destruct (r_string form v) as [|c t]; [contradiction|].
  apply str_head_iff in H. destruct H as [-> | ->]; reflexivity.
Qed.

Lemma p_id_pair_app ch p r : id_pair_ok p = true -> p_id_pair (r_id_pair ch p ++ r) = ROk p r.
Proof.
  destruct p as [k v]. unfold id_pair_ok. cbn [fst snd]. intros H. apply andb_true_iff in H. destruct H as [Hk Hv].
  unfold p_id_pair, r_id_pair. napp. pstep ltac:(apply p_string_app; exact Hk). psp.
  destruct v as [v|].
  - rewrite try_nil_string. apply (pmap_step (fun v => (k, Some v))), p_string_app, Hv.
  - rewrite try_lit_kw. reflexivity.
Qed.

Lemma p_id_app ch params r : forallb id_pair_ok params = true -> keys_distinct params = true ->
  p_id (32 :: match params with
              | [] => if c_opt ch 33 then kw ch 31 "nil" else [40; 41]
              | _ => r_paren (r_id_pair ch) params
              end ++ r) = ROk (CId params) r.
Proof.
  intros Hok Hd. unfold p_id. psp.
  assert (Hlist : forall l, forallb id_pair_ok l = true -> keys_distinct l = true ->
            p_id_params (r_paren (r_id_pair ch) l ++ r) = ROk (CId l) r).
  { intros l Hl Hdl. unfold p_id_params.
    change (try_lit (bs "nil") (r_paren (r_id_pair ch) l ++ r)) with (@None (list Z)).
    change (peek_lit [40] (r_paren (r_id_pair ch) l ++ r)) with true. cbv iota.
    unfold pmap. pstep ltac:(apply (p_paren_list_of_app id_pair_ok) with (h := str_head);
      [intros; apply p_id_pair_app; assumption|reflexivity
      |intros [k v] _; unfold r_id_pair; apply head_in_app, r_string_head_in|exact Hl]).
    unfold pret. rewrite dict_fold; [reflexivity|exact Hdl|intros; reflexivity]. }
  destruct params as [|p params].
  - destruct (c_opt ch 33).
    + unfold p_id_params. rewrite try_lit_kw. reflexivity.
    + apply (Hlist []); reflexivity.
  - apply Hlist; assumption.
Qed.

Definition flag_head (c : Z) : bool := atom_char c || (c =? 92).
Lemma flag_head_in f : flag_ok f = true -> head_in flag_head f.
Proof.
  unfold flag_ok. destruct f as [|c a]; [discriminate|]. cbn [head_in]. unfold flag_head.
  destruct (Z.eqb_spec c 92) as [->|Hne]; [reflexivity|]. intros H. cbn [is_atom forallb] in H.
  apply andb_true_iff in H. destruct H as [H _]. rewrite H. reflexivity.
Qed.

Lemma p_flag_list_app l r : forallb flag_ok l = true -> p_paren_list_of p_flag (r_flag_list l ++ r) = ROk l r.
Proof.
  intros Hl. unfold r_flag_list. apply (p_paren_list_of_app flag_ok) with (h := flag_head); [apply p_flag_app|reflexivity|apply flag_head_in|exact Hl].
Qed.

Lemma p_append_flags_app ch flags X : forallb flag_ok flags = true -> peek_lit [40] X = false ->
  p_append_flags ((match flags with [] => if c_opt ch 10 then [40; 41; 32] else [] | _ => r_flag_list flags ++ [32] end) ++ X)
  = ROk flags X.
Proof.
  intros Hf HX. unfold p_append_flags. destruct flags as [|f flags].
  - destruct (c_opt ch 10); cbn [app]; [reflexivity|]. rewrite HX. reflexivity.
  - rewrite <- app_assoc.
    assert (Hpk : forall Y, peek_lit [40] (r_flag_list (f :: flags) ++ Y) = true) by reflexivity.
    rewrite Hpk. pstep ltac:(apply p_flag_list_app; exact Hf). cbn [app]. psp. reflexivity.
Qed.

Lemma p_append_date_app ch dt X : match dt with None => True | Some t => date_time_wf t = true end ->
  peek_lit [34] X = false ->
  p_append_date ((match dt with None => [] | Some t => r_date_time ch 11 t ++ [32] end) ++ X) = ROk dt X.
Proof.
  intros Hdt HX. unfold p_append_date. destruct dt as [t|].
  - assert (Hpk : forall Y, peek_lit [34] ((r_date_time ch 11 t ++ [32]) ++ Y) = true).
    { intros Y. destruct t as [[[[[[y m] d] h] mi] s] off]. reflexivity. }
    rewrite Hpk. rewrite <- app_assoc. pstep ltac:(apply p_date_time_app; exact Hdt). cbn [app]. psp. reflexivity.
  - cbn [app]. rewrite HX. reflexivity.
Qed.

(* APPEND, STORE and LIST carry no search key: for them cmd_okb does not look at its flag, and p_append_app,
   p_store_app and p_list_app take cmd_ok *)
Lemma p_append_app ch mbox flags dt msg r :
  cmd_ok (CAppend mbox flags dt msg) = true ->
  p_append (32 :: r_mailbox ch 4 mbox ++ 32 ::
            (match flags with [] => if c_opt ch 10 then [40; 41; 32] else [] | _ => r_flag_list flags ++ [32] end)
            ++ (match dt with None => [] | Some t => r_date_time ch 11 t ++ [32] end)
            ++ r_literal (c_opt ch 12) msg ++ r) = ROk (CAppend mbox flags dt msg) r.
Proof.
  unfold cmd_ok. cbn [cmd_okb]. intros H. apply andb_true_iff in H; destruct H as [H Hmsg]. apply andb_true_iff in H; destruct H as [H Hdt].
  apply andb_true_iff in H; destruct H as [Hm Hf].
  unfold p_append. psp. pstep ltac:(apply p_mailbox_app; [exact Hm|reflexivity]). psp.
  pstep ltac:(apply p_append_flags_app; [exact Hf|]; destruct dt as [[[[[[[y m] d] h] mi] s] off]|]; reflexivity).
  pstep ltac:(apply p_append_date_app; [destruct dt; [exact Hdt|exact I]|reflexivity]).
  pstep ltac:(apply p_string_literal; exact Hmsg). reflexivity.
Qed.

Lemma p_store_action_app ch act X :
  p_store_action ((match act with SReplace => [] | SAdd => [43] | SRemove => [45] end) ++ kw ch 16 "flags" ++ X)
  = ROk act (kw ch 16 "flags" ++ X).
Proof.
  destruct act; [|reflexivity|reflexivity].
  unfold kw. change (bs "flags") with (102 :: bs "lags"). cbn [kw_case_from app]. destruct (c_kw ch 16 0%nat); reflexivity.
Qed.
Lemma p_store_silent_app ch (silent : bool) X :
  p_store_silent ((if silent then kw ch 17 ".silent" else []) ++ 32 :: X) = ROk silent (32 :: X).
Proof. unfold p_store_silent. destruct silent; [rewrite try_lit_kw; reflexivity|reflexivity]. Qed.

Lemma p_store_flags_app ch flags r : forallb flag_ok flags = true -> stops r = true -> try_lit sp r = None ->
  p_store_flags ((match flags with
                  | [] => r_flag_list flags
                  | _ => if c_opt ch 18 then sep_by (fun f => f) flags else r_flag_list flags
                  end) ++ r) = ROk flags r.
Proof.
  intros Hf Hr Hsp.
  assert (Hparen : p_store_flags (r_flag_list flags ++ r) = ROk flags r).
  { unfold p_store_flags. change (peek_lit [40] (r_flag_list flags ++ r)) with true. cbv iota.
    apply p_flag_list_app. exact Hf. }
  destruct flags as [|f flags]; [exact Hparen|]. destruct (c_opt ch 18); [|exact Hparen].
  unfold p_store_flags.
  replace (peek_lit [40] (sep_by (fun f0 => f0) (f :: flags) ++ r)) with false.
  - apply (p_list_of_app flag_ok); [apply p_flag_app|discriminate|exact Hf|exact Hr|exact Hsp].
  - symmetry. unfold peek_lit. rewrite (match_ci1_head flag_head 40); [reflexivity|lia|reflexivity|].
    apply (sep_by_head _ (head_in flag_head)); [intros s; apply head_in_app|].
    apply flag_head_in. cbn [forallb] in Hf. apply andb_true_iff in Hf. apply Hf.
Qed.

Lemma p_store_app ch uid set act silent flags r :
  cmd_ok (CStore uid set act silent flags) = true -> stops r = true -> try_lit sp r = None ->
  p_store uid (32 :: r_set set ++ 32 :: (match act with SReplace => [] | SAdd => [43] | SRemove => [45] end)
               ++ kw ch 16 "flags" ++ (if silent then kw ch 17 ".silent" else []) ++ 32 ::
               (match flags with
                | [] => r_flag_list flags
                | _ => if c_opt ch 18 then sep_by (fun f => f) flags else r_flag_list flags
                end) ++ r) = ROk (CStore uid set act silent flags) r.
Proof.
  unfold cmd_ok. cbn [cmd_okb]. intros H Hr Hsp. apply andb_true_iff in H; destruct H as [Hs Hf].
  unfold p_store. psp. pstep ltac:(apply p_msg_set_app; [exact Hs|reflexivity]). psp.
  pstep ltac:(apply p_store_action_app). pstep ltac:(apply p_lit_kw). pstep ltac:(apply p_store_silent_app). psp.
  pstep ltac:(apply p_store_flags_app; assumption). reflexivity.
Qed.

Lemma p_search_app ch uid charset keys r :
  cmd_okb (alt_spellings ch) (CSearch uid charset keys) = true -> stops r = true -> try_lit sp r = None ->
  p_search uid (32 :: (if beq charset (bs "us-ascii") && negb (c_opt ch 13) then []
                       else kw ch 14 "charset" ++ 32 :: r_astring (c_str ch 15 charset) charset ++ [32])
                ++ sep_by (r_skey ch) keys ++ r) = ROk (CSearch uid charset keys) r.
Proof.
  cbn [cmd_okb]. intros H Hr Hsp. apply andb_true_iff in H; destruct H as [Hc Hk].
  destruct keys as [|k keys]; [discriminate|].
  unfold p_search. psp.
  assert (Hcs : p_search_charset ((if beq charset (bs "us-ascii") && negb (c_opt ch 13) then []
                       else kw ch 14 "charset" ++ 32 :: r_astring (c_str ch 15 charset) charset ++ [32])
                ++ sep_by (r_skey ch) (k :: keys) ++ r) = ROk charset (sep_by (r_skey ch) (k :: keys) ++ r)).
  { unfold p_search_charset. destruct (beq charset (bs "us-ascii") && negb (c_opt ch 13)) eqn:E.
    - cbn [app]. apply andb_true_iff in E. destruct E as [E _]. apply beq_eq in E. subst charset.
      assert (Hx : skey_ok (alt_spellings ch) 32 k = true) by (cbn [forallb] in Hk; apply andb_true_iff in Hk; apply Hk).
      destruct keys as [|k2 keys].
      + cbn [sep_by]. rewrite (skey_not_charset ch 32 k r Hx). reflexivity.
      + rewrite sep_by_cons2, <- app_assoc. rewrite (skey_not_charset ch 32 k _ Hx). reflexivity.
    - napp. rewrite try_lit_kw. psp. pstep ltac:(apply p_lower_astring_app; [exact Hc|reflexivity]). psp. reflexivity. }
  pstep ltac:(exact Hcs).
  pstep ltac:(apply (p_list_of_app (skey_ok (alt_spellings ch) 32)); [apply p_search_key_app|discriminate|exact Hk|exact Hr|exact Hsp]).
  reflexivity.
Qed.

Lemma stops_ret_opts ch o st r : stops r = true -> stops (r_ret_opts ch o st ++ r) = true.
Proof. intros Hr. rewrite r_ret_opts_items. destruct (ret_items o st); [exact Hr|reflexivity]. Qed.

Lemma p_list_app ch lsub sel ref pat pats ret st r :
  cmd_ok (CList lsub sel ref pat pats ret st) = true -> stops r = true -> try_lit sp r = None ->
  p_list lsub (32 :: r_sel_opts ch sel ++ r_mailbox ch 4 ref ++ 32 ::
               (match pats with
                | [] => r_list_mailbox (c_str ch 6 pat) pat
                | _ => r_paren (r_pattern ch 7) pats
                end) ++ r_ret_opts ch ret st ++ r) = ROk (CList lsub sel ref pat pats ret st) r.
Proof.
  unfold cmd_ok. cbn [cmd_okb]. intros H Hr Hsp. apply andb_true_iff in H; destruct H as [H Hst]. apply andb_true_iff in H; destruct H as [H Hp].
  apply andb_true_iff in H; destruct H as [Hsel Href].
  unfold p_list. psp.
  pstep ltac:(apply p_sel_part; [exact Hsel|apply head_in_app; apply r_mailbox_head_in]).
  pstep ltac:(apply p_mailbox_app; [exact Href|reflexivity]). psp.
  assert (Hpp : p_list_pats ((match pats with
                | [] => r_list_mailbox (c_str ch 6 pat) pat
                | _ => r_paren (r_pattern ch 7) pats
                end) ++ r_ret_opts ch ret st ++ r) = ROk (pat, pats) (r_ret_opts ch ret st ++ r)).
  { unfold p_list_pats. destruct pats as [|p pats].
    - unfold peek_lit. rewrite (match_ci1_head list_head 40); [|lia|reflexivity|apply r_list_mailbox_head_in].
      apply (pmap_step (fun p => (p, []))), p_list_mailbox_app; [exact Hp|apply stops_ret_opts; exact Hr].
    - apply andb_true_iff in Hp. destruct Hp as [Hpat Hps]. apply beq_eq in Hpat. subst pat.
      assert (Hpk : forall Y, peek_lit [40] (r_paren (r_pattern ch 7) (p :: pats) ++ Y) = true) by reflexivity.
      rewrite Hpk. unfold pmap.
      pstep ltac:(apply (p_paren_list_of_app pattern_ok) with (h := list_head);
        [apply p_pattern_app|reflexivity|intros x _; apply r_pattern_head_in|exact Hps]).
      reflexivity. }
  pstep ltac:(exact Hpp).
  pstep ltac:(apply p_ret_part; [|exact Hsp]; destruct (ro_status ret); destruct st; try discriminate; congruence).
  reflexivity.
Qed.

Lemma p_set_mailbox_app (g : list sset_elt -> list Z -> cmd) ch set mbox r :
  set_ok set = true -> mailbox_ok mbox = true -> stops r = true ->
  (p_sp ;;; s <- p_msg_set ;; p_sp ;;; m <- p_mailbox ;; pret (g s m))%parser (32 :: r_set set ++ 32 :: r_mailbox ch 4 mbox ++ r)
  = ROk (g set mbox) r.
Proof.
  intros Hs Hm Hr. psp. pstep ltac:(apply p_msg_set_app; [exact Hs|reflexivity]). psp.
  pstep ltac:(apply p_mailbox_app; assumption). reflexivity.
Qed.

Definition cmd_tail (tag : list Z) : parser ast :=
  c <- p_atom ;;
  match lookup cmd_toks (lower_s c) with
  | None => pfail
  | Some t => body <- p_command t ;; pret (mkAst tag body)
  end.

Lemma parse_core_tail tag X : tag_ok tag = true -> parse_core (tag ++ 32 :: X) = cmd_tail tag X.
Proof.
  intros Ht. unfold parse_core, tag_ok in *. destruct tag as [|c tag]; [discriminate|].
  pstep ltac:(apply p_many1_app; [discriminate|exact Ht|reflexivity]). psp. reflexivity.
Qed.

Lemma cmd_toks_keywords : keywords atom_char cmd_toks = true.
Proof. vm_compute. reflexivity. Qed.

Lemma cmd_app ch tag (uid : bool) name t c X r :
  lookup cmd_toks (bs name) = Some t -> t <> TUid ->
  (uid = true -> is_uid_command t = true) -> stops X = true -> p_command_body uid t X = ROk c r ->
  cmd_tail tag (r_uid ch uid ++ kw ch 0 name ++ X) = ROk (mkAst tag c) r.
Proof.
  intros H4 Ht H6 HX P. assert (H5 : p_command t = p_command_body false t) by (destruct t; try reflexivity; contradiction).
  pose proof (lookup_keyword _ _ _ _ cmd_toks_keywords H4) as K. unfold cmd_tail, r_uid. destruct uid.
  - napp. pstep ltac:(apply p_atom_kw; reflexivity).
    rewrite (kw_lower atom_char) by reflexivity. change (lookup cmd_toks (bs "uid")) with (Some TUid). cbv iota.
    assert (E : p_command TUid (32 :: kw ch 0 name ++ X) = ROk c r).
    { cbn [p_command]. psp. pstep ltac:(apply p_atom_kw; [exact K|exact HX]).
      rewrite (kw_lower atom_char) by exact K. rewrite H4, (H6 eq_refl). exact P. }
    unfold pbind. rewrite E. reflexivity.
  - cbn [app]. pstep ltac:(apply p_atom_kw; [exact K|exact HX]).
    rewrite (kw_lower atom_char) by exact K. rewrite H4, H5. unfold pbind. rewrite P. reflexivity.
Qed.

Lemma cmd_app0 ch tag name t c X r :
  lookup cmd_toks (bs name) = Some t -> t <> TUid ->
  stops X = true -> p_command_body false t X = ROk c r ->
  cmd_tail tag (kw ch 0 name ++ X) = ROk (mkAst tag c) r.
Proof. intros. apply (cmd_app ch tag false name t); auto. discriminate. Qed.

(* The command keyword: its side conditions are computations on the keyword; what follows it stops because
   it begins with SP or is the end of the command.  Left to prove: the arguments are read back. *)
Ltac kwcmd :=
  first [eapply cmd_app0; [in_table|discriminate|first [reflexivity|eassumption]|]
        |eapply cmd_app; [in_table|discriminate|intros _; reflexivity|reflexivity|]];
  cbn [p_command_body].

Definition fin (ch : choices) : list Z := if c_opt ch 99 then [13; 10] else [].

Theorem parse_render_gen ch tag c r :
  tag_ok tag = true -> cmd_okb (alt_spellings ch) c = true -> stops r = true -> try_lit sp r = None ->
  parse_core (tag ++ 32 :: r_cmd ch c ++ r) = ROk (mkAst tag c) r.
Proof.
  intros Ht Hc Hr Hsp. rewrite parse_core_tail by exact Ht.
  destruct c as [n| |set|mech|u p|m mbox|a b|lsub sel ref pat pats ret st|mbox atts|params|mbox flags dt msg
                 |uid charset keys|uid set atts|uid set act silent flags|uid set mbox|uid set mbox];
    cbn [r_cmd]; cbn [cmd_okb] in Hc; napp.
  - destruct n; kwcmd; reflexivity.
  - kwcmd. reflexivity.
  - kwcmd. psp. pstep ltac:(apply p_msg_set_app; assumption). reflexivity.
  - kwcmd. psp. pstep ltac:(apply p_atom_app; assumption). reflexivity.
  - apply andb_true_iff in Hc. destruct Hc as [Hu Hp]. kwcmd.
    psp. pstep ltac:(apply p_astring_app; [exact Hu|reflexivity]). psp.
    pstep ltac:(apply p_astring_app; assumption). reflexivity.
  - destruct m; kwcmd; psp; pstep ltac:(apply p_mailbox_app; assumption); reflexivity.
  - apply andb_true_iff in Hc. destruct Hc as [Ha Hb]. kwcmd.
    psp. pstep ltac:(apply p_mailbox_app; [exact Ha|reflexivity]). psp.
    pstep ltac:(apply p_mailbox_app; assumption). reflexivity.
  - destruct lsub; kwcmd; apply p_list_app; assumption.
  - kwcmd. psp. pstep ltac:(apply p_mailbox_app; [exact Hc|reflexivity]). psp.
    pstep ltac:(apply p_status_list_app). reflexivity.
  - apply andb_true_iff in Hc. destruct Hc as [Hp Hd]. kwcmd. apply p_id_app; assumption.
  - kwcmd. apply p_append_app. exact Hc.
  - kwcmd. apply p_search_app; assumption.
  - apply andb_true_iff in Hc. destruct Hc as [Hs Ha]. kwcmd.
    psp. pstep ltac:(apply p_msg_set_app; [exact Hs|reflexivity]). psp.
    pstep ltac:(apply p_fetch_atts_app; assumption). reflexivity.
  - kwcmd. apply p_store_app; assumption.
  - apply andb_true_iff in Hc. destruct Hc as [Hs Hm]. kwcmd. apply (p_set_mailbox_app (CCopy uid)); assumption.
  - apply andb_true_iff in Hc. destruct Hc as [Hs Hm]. kwcmd. apply (p_set_mailbox_app (CMove uid)); assumption.
Qed.

Lemma cmd_okb_alt b c : cmd_okb false c = true -> cmd_okb b c = true.
Proof.
  destruct c; cbn [cmd_okb]; try (intros H; exact H).
  intros H. apply andb_true_iff in H. destruct H as [H1 H2]. rewrite H1. cbn [andb].
  destruct keys as [|k keys]; [exact H2|]. rewrite forallb_forall in *. intros x Hx. apply skey_ok_alt. apply H2. exact Hx.
Qed.
Lemma wfb_alt b a : wf a = true -> wfb b a = true.
Proof.
  unfold wf, wfb. intros H. apply andb_true_iff in H. destruct H as [Ht Hc]. rewrite Ht. apply cmd_okb_alt. exact Hc.
Qed.

Theorem parse_core_render_alt a ch : wfb (alt_spellings ch) a = true -> parse_core (render a ch) = ROk a (fin ch).
Proof.
  destruct a as [tag c]. unfold wfb, render. cbn [a_tag a_cmd]. intros H. apply andb_true_iff in H. destruct H as [Ht Hc].
  fold (fin ch). apply parse_render_gen; [exact Ht|exact Hc| |]; unfold fin; destruct (c_opt ch 99); reflexivity.
Qed.

Theorem parse_core_render a ch : wf a = true -> parse_core (render a ch) = ROk a (fin ch).
Proof. intros H. apply parse_core_render_alt, wfb_alt, H. Qed.

Theorem parse_render a ch : wf a = true -> parse (render a ch) = POk a.
Proof. intros H. unfold parse. rewrite parse_core_render by exact H. reflexivity. Qed.

Theorem parse_strict_render a ch : wf a = true -> parse_strict (render a ch) = POk a.
Proof.
  intros H. unfold parse_strict. rewrite parse_core_render by exact H. unfold fin. destruct (c_opt ch 99); reflexivity.
Qed.

Theorem parse_rest_render a ch : wf a = true -> at_end (parse_rest (render a ch)) = true.
Proof.
  intros H. unfold parse_rest. rewrite parse_core_render by exact H. unfold fin. destruct (c_opt ch 99); reflexivity.
Qed.

Theorem parse_core_render_canon a : wf_canon a = true -> parse_core (render a canon) = ROk a [].
Proof. intros H. apply (parse_core_render_alt a canon). exact H. Qed.
