(* Proofs/CrashP.v — C11 on Model/Crash.v: whatever part of a command's file effects has happened
   when the process dies (any subset of its deletions, any of its additions under unused numbers),
   the restart never gives a known UID to another message and never lowers UIDNEXT
   (no_rebind, proved as recover_never_rebinds; APPEND killed after its file and EXPUNGE killed
   among its removals are instances).  Of the complete traces only APPEND's is followed to its end (append_complete).
   The crash theorems assume NoDup (r_keys (d_db d)) beside `consistent d`: it is not part of
   `consistent`, and append_complete does not re-establish it. *)
From Asimap Require Import Base.Res Model.Crash.
From Coq Require Import ZifyBool.
Open Scope Z_scope.

Lemma in_fresh next n u : In u (fresh_uids next n) -> next <= u.
Proof. unfold fresh_uids. rewrite in_map_iff. intros [i [<- _]]. lia. Qed.
Lemma fresh_length next n : List.length (fresh_uids next n) = n.
Proof. unfold fresh_uids. rewrite map_length, seq_length. reflexivity. Qed.

Lemma in_bindings F r u x :
  In (u, x) (bindings F r) <-> exists k, In (k, u) (combine (r_keys r) (r_uids r)) /\ x = cid_of F k.
Proof.
  unfold bindings. rewrite in_map_iff. split.
  - intros [[k u0] [E Hin]]. cbn [fst snd] in E. inversion E; subst. exists k. auto.
  - intros [k [Hin ->]]. exists (k, u). auto.
Qed.

Lemma no_file (files : list (Z * Z)) k :
  filter (fun f => fst f =? k) files = [] <-> ~ In k (map fst files).
Proof.
  induction files as [|[k0 c0] fs IH]; cbn [filter map fst In]; [tauto|].
  destruct (Z.eqb_spec k0 k) as [E|E]; [split; [discriminate|tauto]|]. rewrite IH. tauto.
Qed.

Lemma single_match (files : list (Z * Z)) k :
  NoDup (map fst files) -> In k (map fst files) -> exists c, filter (fun f => fst f =? k) files = [(k, c)].
Proof.
  induction files as [|[k0 c0] fs IH]; intros Hnd Hin; [destruct Hin|].
  cbn [map fst] in *. inversion Hnd as [|? ? Hnot Hnd']; subst. cbn [filter fst].
  destruct (Z.eqb_spec k0 k) as [->|E].
  - exists c0. f_equal. apply no_file. exact Hnot.
  - destruct Hin as [->|Hin]; [contradiction|]. apply IH; assumption.
Qed.

Lemma filter_filter {A} (f g : A -> bool) l : filter f (filter g l) = filter (fun x => g x && f x) l.
Proof.
  induction l as [|x l IH]; [reflexivity|]. cbn [filter].
  destruct (g x); cbn [filter andb]; rewrite IH; reflexivity.
Qed.

Lemma filter_comm {A} (f g : A -> bool) l : filter f (filter g l) = filter g (filter f l).
Proof. rewrite !filter_filter. apply filter_ext. intros x. apply andb_comm. Qed.

Lemma filter_true {A} (l : list A) : filter (fun _ => true) l = l.
Proof. induction l as [|x l IH]; [reflexivity|]. cbn [filter]. rewrite IH. reflexivity. Qed.

Lemma cid_survives files P added k :
  NoDup (map fst files) -> In k (map fst files) -> ~ In k (map fst added) ->
  In k (map fst (filter P files ++ added)) ->
  cid_of (filter P files ++ added) k = cid_of files k /\ cid_of files k <> None.
Proof.
  intros Hnd Hin Hadd Hin'. destruct (single_match files k Hnd Hin) as [c Hc]. apply no_file in Hadd.
  assert (E : filter (fun f => fst f =? k) (filter P files ++ added) = filter P [(k, c)])
    by (rewrite filter_app, filter_comm, Hc, Hadd; apply app_nil_r).
  unfold cid_of. rewrite E, Hc. cbn [filter] in *.
  destruct (P (k, c)); [split; [reflexivity|discriminate]|].
  apply no_file in E. contradiction.
Qed.

Lemma combine_app {A B} (a c : list A) (b d : list B) :
  List.length a = List.length b -> combine (a ++ c) (b ++ d) = combine a b ++ combine c d.
Proof.
  revert b; induction a as [|x a IH]; intros [|y b] H; cbn [List.length combine app] in *; try discriminate; [reflexivity|].
  rewrite IH by lia. reflexivity.
Qed.
Lemma combine_map_fst_snd {A B} (l : list (A * B)) : combine (map fst l) (map snd l) = l.
Proof. induction l as [|[a b] l IH]; [reflexivity|]. cbn [map fst snd combine]. rewrite IH. reflexivity. Qed.

(* the test by which the restart finds folder and row in agreement *)
Lemma same_keys (a b : list Z) :
  forallb (fun p => fst p =? snd p) (combine a b) && (List.length a =? List.length b)%nat = true <-> a = b.
Proof.
  split.
  - revert b; induction a as [|x a IH]; intros [|y b] H; cbn [combine forallb List.length fst snd] in H;
      try discriminate; [reflexivity|].
    assert (x = y) by lia. subst y. f_equal. apply IH. cbn [Nat.eqb] in H. lia.
  - intros <-. induction a as [|x a IH]; [reflexivity|].
    cbn [combine forallb List.length fst snd Nat.eqb]. rewrite Z.eqb_refl. exact IH.
Qed.

Lemma zmem_In x l : zmem x l = true <-> In x l.
Proof.
  unfold zmem. rewrite existsb_exists. split.
  - intros [y [Hy E]]. apply Z.eqb_eq in E. subst. exact Hy.
  - intros H. exists x. split; [exact H|apply Z.eqb_refl].
Qed.

Lemma recover_rows d k u :
  In (k, u) (combine (r_keys (recover d)) (r_uids (recover d))) ->
  In (k, u) (combine (r_keys (d_db d)) (r_uids (d_db d))) /\ In k (map fst (d_files d)) \/ r_next (d_db d) <= u.
Proof.
  unfold recover. destruct (forallb _ _ && _) eqn:B1; [|destruct (_ <? _)%nat]; cbn [r_keys r_uids]; intros Hin.
  - apply same_keys in B1. left. split; [exact Hin|]. rewrite B1. eapply in_combine_l; exact Hin.
  - right. eapply in_fresh, in_combine_r, Hin.
  - rewrite combine_app, combine_map_fst_snd in Hin by (rewrite !map_length; reflexivity).
    apply in_app_or in Hin. destruct Hin as [Hin|Hin].
    + apply filter_In in Hin. destruct Hin as [Hin Hz]. left. split; [exact Hin|]. apply zmem_In. exact Hz.
    + right. eapply in_fresh, in_combine_r, Hin.
Qed.

Lemma recover_next d : r_next (d_db d) <= r_next (recover d).
Proof. unfold recover. destruct (_ && _); [|destruct (_ <? _)%nat]; cbn [r_next]; unfold zlen; lia. Qed.

(* files, db: the directory and the database row as the last completed command left them;
   d': what the restart finds (in every use its own d_db is db, only the files differ) *)
Definition no_rebind (files : list (Z * Z)) (db : dbrow) (d' : durable) : Prop :=
  (forall u x, In (u, x) (bindings (d_files d') (recover d')) ->
               (In (u, x) (bindings files db) /\ x <> None) \/ r_next db <= u) /\
  r_next db <= r_next (recover d').

Lemma recover_keeps files' files db :
  (forall k, In k (r_keys db) -> In k (map fst files') ->
             cid_of files' k = cid_of files k /\ cid_of files k <> None) ->
  no_rebind files db {| d_files := files'; d_db := db |}.
Proof.
  intros Hsame. set (d' := {| d_files := files'; d_db := db |}). split; [change (d_files d') with files'|apply (recover_next d')].
  intros u x Hin. apply in_bindings in Hin. destruct Hin as [k [Hin ->]].
  destruct (recover_rows d' k u Hin) as [[Hrow Hon]|Hge]; [left|right; exact Hge].
  destruct (Hsame k (in_combine_l _ _ _ _ Hrow) Hon) as [E Hne]. rewrite E. split; [|exact Hne].
  apply in_bindings. exists k. auto.
Qed.

Theorem recover_never_rebinds files db P added :
  map fst files = r_keys db -> NoDup (r_keys db) ->
  (forall a, In a added -> ~ In (fst a) (r_keys db)) ->
  no_rebind files db {| d_files := filter P files ++ added; d_db := db |}.
Proof.
  intros Hk Hnd Hadd. apply recover_keeps. intros k Hkk Hon.
  apply cid_survives with (P := P) (added := added); [rewrite Hk; exact Hnd|rewrite Hk; exact Hkk| |exact Hon].
  intros H. apply in_map_iff in H. destruct H as [a [E Ha]]. apply (Hadd a Ha). rewrite E. exact Hkk.
Qed.

Lemma recover_consistent d : consistent d -> recover d = d_db d.
Proof.
  intros [Hk _]. unfold recover. rewrite (proj2 (same_keys _ _) Hk). reflexivity.
Qed.

Lemma fold_max_ge l : forall a, a <= fold_left Z.max l a.
Proof. induction l as [|x l IH]; intros a; cbn [fold_left]; [lia|]. specialize (IH (Z.max a x)). lia. Qed.
Lemma max_key_in l k : In k l -> k <= max_key l.
Proof.
  unfold max_key. generalize 0. induction l as [|x l IH]; intros a H; [destruct H|]. cbn [fold_left].
  destruct H as [->|H]; [pose proof (fold_max_ge l (Z.max a k)); lia|apply IH; exact H].
Qed.

(* APPEND killed between the two effects of append_trace (before the first nothing has happened,
   after the second the trace is complete) *)
Theorem append_file_only d c :
  consistent d -> NoDup (r_keys (d_db d)) ->
  no_rebind (d_files d) (d_db d) (apply_effects d [FileAdd (max_key (map fst (d_files d)) + 1) c]).
Proof.
  intros [Hk _] Hnd. set (k := max_key (map fst (d_files d)) + 1).
  assert (Hadd : forall a, In a [(k, c)] -> ~ In (fst a) (r_keys (d_db d))).
  { intros a [<-|[]] Hin. cbn [fst] in Hin. rewrite <- Hk in Hin. apply max_key_in in Hin. unfold k in Hin. lia. }
  pose proof (recover_never_rebinds (d_files d) (d_db d) (fun _ => true) [(k, c)] Hk Hnd Hadd) as H.
  rewrite filter_true in H. exact H.
Qed.

Lemma cid_of_app_new files k c k0 : k0 <> k -> cid_of (files ++ [(k, c)]) k0 = cid_of files k0.
Proof.
  intros H. unfold cid_of. rewrite filter_app. cbn [filter fst]. destruct (k =? k0) eqn:E; [lia|]. rewrite app_nil_r. reflexivity.
Qed.
Lemma cid_of_new files k c : ~ In k (map fst files) -> cid_of (files ++ [(k, c)]) k = Some c.
Proof.
  intros H. apply no_file in H. unfold cid_of. rewrite filter_app, H. cbn [filter fst app].
  rewrite Z.eqb_refl. reflexivity.
Qed.

Theorem append_complete d c :
  consistent d ->
  let d' := apply_effects d (append_trace d c) in
  consistent d' /\ recover d' = d_db d' /\
  In (r_next (d_db d), Some c) (bindings (d_files d') (d_db d')) /\
  (forall u x, In (u, x) (bindings (d_files d) (d_db d)) -> In (u, x) (bindings (d_files d') (d_db d'))).
Proof.
  intros Hc d'. destruct Hc as [Hk [Hl [Hu [Hp Hn]]]].
  set (k := max_key (map fst (d_files d)) + 1).
  assert (Hnew : ~ In k (map fst (d_files d))) by (intros H; apply max_key_in in H; unfold k in H; lia).
  assert (Ed : d' = {| d_files := d_files d ++ [(k, c)];
                      d_db := {| r_keys := r_keys (d_db d) ++ [k]; r_uids := r_uids (d_db d) ++ [r_next (d_db d)];
                                 r_next := r_next (d_db d) + 1 |} |}) by reflexivity.
  assert (Hc' : consistent d').
  { rewrite Ed. unfold consistent. cbn [d_files d_db r_keys r_uids r_next]. rewrite map_app, Hk. cbn [map fst].
    split; [reflexivity|]. split; [rewrite !app_length, Hl; reflexivity|]. split; [|split].
    - apply Forall_app; split; [eapply Forall_impl; [|exact Hu]; cbv beta; intros; lia|]. constructor; [lia|constructor].
    - apply Forall_app; split; [exact Hp|]. constructor; [|constructor]. unfold k.
      pose proof (fold_max_ge (map fst (d_files d)) 0). unfold max_key. lia.
    - lia. }
  split; [exact Hc'|]. split; [apply recover_consistent; exact Hc'|]. rewrite Ed. cbn [d_files d_db]. split.
  - apply in_bindings. exists k. cbn [r_keys r_uids]. split.
    + rewrite combine_app by (symmetry; exact Hl). apply in_or_app. right. left. reflexivity.
    + symmetry. apply cid_of_new. exact Hnew.
  - intros u x Hin. apply in_bindings in Hin. destruct Hin as [k0 [Hin ->]]. apply in_bindings. exists k0. cbn [r_keys r_uids]. split.
    + rewrite combine_app by (symmetry; exact Hl). apply in_or_app. left. exact Hin.
    + symmetry. apply cid_of_app_new. intros ->. apply Hnew. rewrite Hk. eapply in_combine_l. exact Hin.
Qed.

Lemma fold_filedel (ks : list Z) : forall d,
  fold_left apply_effect (map FileDel ks) d
  = {| d_files := filter (fun f => negb (zmem (fst f) ks)) (d_files d); d_db := d_db d |}.
Proof.
  induction ks as [|k ks IH]; intros d; cbn [map fold_left].
  - cbn [zmem existsb negb]. rewrite filter_true. destruct d; reflexivity.
  - rewrite IH. cbn [apply_effect d_files d_db]. f_equal.
    rewrite filter_filter. apply filter_ext. intros f. cbn [zmem existsb]. rewrite negb_orb. reflexivity.
Qed.

(* EXPUNGE (and CLOSE, MOVE's removal) killed before its commit: `removed` may be any prefix of the
   removals of expunge_trace *)
Theorem expunge_killed_midway d (removed : list Z) :
  consistent d -> NoDup (r_keys (d_db d)) ->
  no_rebind (d_files d) (d_db d) (apply_effects d (map FileDel removed)).
Proof.
  intros [Hk _] Hnd. unfold apply_effects. rewrite fold_filedel, <- (app_nil_r (filter _ _)).
  apply recover_never_rebinds; [exact Hk|exact Hnd|intros a []].
Qed.

(* With a delivery made while the server is down, after the last message's file has been
   removed: the UID is given to the new message
   (known_findings.json: C11-rebind-tail-expunge-crash-then-delivery) *)
Example delivery_while_down_rebinds :
  let d := {| d_files := [(1, 101); (2, 102); (3, 103)]; d_db := {| r_keys := [1; 2; 3]; r_uids := [1; 2; 3]; r_next := 4 |} |} in
  let crashed := apply_effects d [FileDel 3] in
  let delivered := apply_effect crashed (FileAdd 3 777) in
  In (3, Some 103) (bindings (d_files d) (d_db d)) /\ In (3, Some 777) (bindings (d_files delivered) (recover delivered)).
Proof. split; vm_compute; auto. Qed.
