(* Proofs/PhasesTie.v — the atomic commands of Model/Mbox.v are the two-step commands of Model/Phases.v with no
   waiting in between: in every world (the invariant is not needed) `step` sends exactly what `arrive` followed at
   once by `execute` sends, and leaves the same world - except that after a message set out of range (BAD) `execute`
   has flushed the issuer's queue, already empty, once more.  Proofs/PhasesTie2.v shows that this changes no message,
   counter or session entry. *)
From Asimap Require Import Base.Res Spec.SetSem Model.Mbox Model.Phases Proofs.MboxInv Proofs.MboxStep Proofs.MboxOut Proofs.PhasesP.
Open Scope Z_scope.

(* unchanged by a resync, so the issuer is there for the second gate *)
Definition sessions (b : mbox) : list Z := map fst (b_clients b).

Lemma sessions_get b b' s c : sessions b' = sessions b -> get_client b s = Some c -> exists c', get_client b' s = Some c'.
Proof.
  intros Hk G. destruct (get_client b' s) as [c'|] eqn:G'; [eauto|].
  apply zget_none in G'. fold (sessions b') in G'. rewrite Hk in G'. apply zget_none in G'. unfold get_client in G. congruence.
Qed.

Lemma sessions_map_out (f : Z * client -> (Z * client) * out) l :
  (forall p, fst (fst (f p)) = fst p) -> map fst (fst (map_out f l)) = map fst l.
Proof. intros H. rewrite map_out_fst, map_map. apply map_ext. exact H. Qed.
Lemma sessions_announce b rs : sessions (fst (announce b rs)) = sessions b.
Proof.
  unfold announce. rewrite let_pair. apply sessions_map_out.
  intros [k c]. unfold announce1. destruct (c_pend c); [|destruct (c_idle c)]; reflexivity.
Qed.
Lemma sessions_dispatch b d rs : sessions (fst (dispatch b d rs)) = sessions b.
Proof.
  unfold dispatch. destruct rs as [|r rs']; [reflexivity|]. rewrite let_pair. apply sessions_map_out.
  intros [k c]. unfold dispatch1. destruct (match d with Some d0 => k =? d0 | None => false end); [|destruct (c_idle c)]; reflexivity.
Qed.
Lemma sessions_resync b : sessions (fst (resync b)) = sessions b.
Proof.
  unfold resync. destruct (b_disk b); [reflexivity|]. rewrite !let_pair. cbn [fst].
  rewrite sessions_dispatch, sessions_announce. reflexivity.
Qed.

Lemma find_sel_set l n b b' s c c' :
  alist_get l n = Some b -> get_client b s = Some c -> get_client b' s = Some c' ->
  find_sel (alist_set l n b') s = find_sel l s.
Proof.
  intros H G G'. induction l as [|[k v] l IH]; cbn [alist_get alist_set find_sel] in *; [discriminate|].
  destruct (String.eqb n k) eqn:E; cbn [find_sel].
  - injection H as ->. rewrite G, G'. apply String.eqb_eq in E. subst k. reflexivity.
  - destruct (get_client v s); [reflexivity|apply IH, H].
Qed.
Lemma sel_set_box w n b b' s c c' :
  get_box w n = Some b -> get_client b s = Some c -> get_client b' s = Some c' -> sel (set_box w n b') s = sel w s.
Proof. apply find_sel_set. Qed.

Lemma alist_set_twice {V} (l : list (string * V)) k a b : alist_set (alist_set l k a) k b = alist_set l k b.
Proof.
  induction l as [|[k' v] l IH]; cbn [alist_set]; [rewrite String.eqb_refl; reflexivity|].
  destruct (String.eqb k k') eqn:E; cbn [alist_set]; [rewrite String.eqb_refl; reflexivity|].
  rewrite E, IH. reflexivity.
Qed.
Lemma set_box_twice w n a b : set_box (set_box w n a) n b = set_box w n b.
Proof. unfold set_box. cbn [w_boxes w_vv w_pack_size w_pack_num w_pack_den]. rewrite alist_set_twice. reflexivity. Qed.

Lemma body_set_box c w n b0 b1 s exam sl : body c (set_box w n b0) n b1 s exam sl = body c w n b1 s exam sl.
Proof.
  destruct c; cbn [body]; unfold store_body, fetch_body, search_body.
  - destruct (_ || _); [|destruct (dispatch _ _ _)]; rewrite set_box_twice; reflexivity.
  - destruct (dispatch _ _ _). destruct (flush _ s). rewrite set_box_twice. reflexivity.
  - rewrite set_box_twice. reflexivity.
Qed.

Lemma zget_upd {V} (l : list (Z * V)) s (f : V -> V) s' :
  zalist_get (map (fun p => if fst p =? s then (fst p, f (snd p)) else p) l) s'
  = if s' =? s then option_map f (zalist_get l s') else zalist_get l s'.
Proof.
  induction l as [|[k x] l IH]; cbn [zalist_get map fst snd]; [destruct (s' =? s); reflexivity|].
  destruct (k =? s) eqn:E; cbn [zalist_get]; rewrite IH; destruct (s' =? k) eqn:E'; try reflexivity;
    apply Z.eqb_eq in E'; subst s'; rewrite E; reflexivity.
Qed.
Lemma get_upd_client b s f s' :
  get_client (upd_client b s f) s' = if s' =? s then option_map f (get_client b s') else get_client b s'.
Proof. apply zget_upd. Qed.

Lemma flush_issuer b s c :
  get_client b s = Some c -> exists c0, get_client (fst (flush b s)) s = Some c0 /\ c_pend c0 = [] /\ c_exam c0 = c_exam c.
Proof.
  intros G. unfold flush. rewrite G. cbn [flush1 fst]. rewrite get_upd_client, Z.eqb_refl, G.
  eexists. split; [reflexivity|]. split; [reflexivity|apply deliver_pend].
Qed.

Lemma gate_passes b s u c : get_client b s = Some c -> pending_expunges c = false -> gate b s u true = Some (flush b s).
Proof. intros G P. unfold gate. rewrite G, P. reflexivity. Qed.

(* the second gate after the resync, which never queues an EXPUNGE *)
Lemma gate_after_resync b s u c :
  get_client b s = Some c -> emptied b s ->
  gate (fst (resync b)) s u true = Some (flush (fst (resync b)) s).
Proof.
  intros G Q. destruct (sessions_get b (fst (resync b)) s c (sessions_resync b) G) as [c1 G1].
  apply (gate_passes _ _ _ c1 G1).
  apply existsb_false, (resync_queued no_expunge told_clean b s (empty_queued _ b s Q)), get_client_in, G1.
Qed.
(* the second gate with the set out of range, before any resync: the queue is still empty *)
Lemma gate_again b s u c : get_client b s = Some c -> c_pend c = [] -> gate b s u true = Some (fst (flush b s), []).
Proof.
  intros G P. rewrite (gate_passes b s u c G) by (unfold pending_expunges; rewrite P; reflexivity).
  unfold flush, flush1. rewrite G, P. reflexivity.
Qed.

(* `execute` in the world `arrive` has left: both second gates are open *)
Lemma execute_after_arrive w s c n b cl :
  sel w s = Some n -> get_box w n = Some b -> get_client b s = Some cl ->
  let b0 := fst (flush b s) in
  execute (set_box w n b0) s c =
  match admitted c w n b0 with
  | Err _ => (set_box w n (fst (flush b0 s)), [(s, RBad)])
  | Ok (b1a, o1a, sl) =>
      let '(b1, o1b) := flush b1a s in let '(w', o) := body c w n b1 s (c_exam cl) sl in (w', o1a ++ o1b ++ o)
  end.
Proof.
  intros Es Eb Ec. destruct (flush_issuer b s cl Ec) as (c0 & G0 & P0 & <-). cbv zeta.
  pose proof (flush_empties b s) as Q0. set (b0 := fst (flush b s)) in *.
  rewrite execute_eq. unfold in_mbox. rewrite (sel_set_box w n b b0 s cl c0 Eb Ec G0), Es, get_set_box, String.eqb_refl, G0.
  change (admitted c (set_box w n b0) n b0) with (admitted c w n b0).   (* admission never looks at the world *)
  destruct (admitted c w n b0) as [[[b1a o1a] sl]|] eqn:A.
  - apply admitted_ok in A as [-> _]. rewrite (gate_after_resync b0 s (p_uid c) c0 G0 Q0).
    destruct (flush (fst (resync b0)) s) as [b1 o1b]. rewrite body_set_box. reflexivity.
  - rewrite (gate_again b0 s (p_uid c) c0 G0 P0), set_box_twice. reflexivity.
Qed.

Theorem step_vs_arrive_execute w s c :
  let '(w1, o1, go) := arrive w s c in
  if go then
    let '(w2, o2) := execute w1 s c in
    step w (to_op s c) = (w2, o1 ++ o2) \/
    exists n b cl, get_client b s = Some cl /\ c_pend cl = [] /\
                   w2 = set_box w n (fst (flush b s)) /\ step w (to_op s c) = (set_box w n b, o1 ++ o2)
  else step w (to_op s c) = (w1, o1).
Proof.
  rewrite step_eq. unfold arrive, in_mbox.
  destruct (sel w s) as [n|] eqn:Es; [|reflexivity]. destruct (get_box w n) as [b|] eqn:Eb; [|reflexivity].
  destruct (get_client b s) as [cl|] eqn:Ec; [|reflexivity].
  destruct (match c with PStore _ _ _ _ _ => c_exam cl | _ => false end); [reflexivity|].
  destruct (gate b s (p_uid c) true) as [[b0 o0]|] eqn:G; [|reflexivity]. apply gate_flush in G as [-> _].
  rewrite (execute_after_arrive w s c n b cl Es Eb Ec).
  destruct (admitted c w n (fst (flush b s))) as [[[b1a o1a] sl]|].
  - destruct (flush b1a s) as [b1 o1b]. destruct (body c w n b1 s (c_exam cl) sl) as [w' o].
    left. rewrite <- app_assoc. reflexivity.
  - right. destruct (flush_issuer b s cl Ec) as (c0 & G0 & P0 & _). exists n, (fst (flush b s)), c0. auto.
Qed.

Theorem step_is_arrive_then_execute w s c :
  winv w ->
  snd (step w (to_op s c)) =
  (let '(w1, o1, go) := arrive w s c in if go then o1 ++ snd (execute w1 s c) else o1).
Proof.
  intros _. pose proof (step_vs_arrive_execute w s c) as H.
  destruct (arrive w s c) as [[w1 o1] [|]]; [|rewrite H; reflexivity].
  destruct (execute w1 s c) as [w2 o2]. destruct H as [->|(n & b & cl & _ & _ & _ & ->)]; reflexivity.
Qed.
