(* Proofs/MboxInv.v — the FIFO / view invariant of Model/Mbox.v (property C01) and the
   UID order invariant (C02), and that each operation on a mailbox keeps them; Proofs/MboxStep.v
   goes through the steps. *)
From Asimap Require Import Base.Res Spec.SetSem Model.Mbox.
From Coq Require Import Sorting.Sorted ZifyBool.
Open Scope Z_scope.

(* relative to the server's current UID list L: everything delivered so far was legal, replaying
   what is still queued on the client's view gives exactly L, and an idling client has no queue *)
Definition cinv (L : list Z) (c : client) : Prop :=
  c_ok c = true /\ apply_resps (c_view c) (c_pend c) = Some L /\ (c_idle c = true -> c_pend c = []).
Definition binv (b : mbox) : Prop := Forall (fun p => cinv (uids b) (snd p)) (b_clients b).

(* the UID order invariant (C02) *)
Definition uinv (b : mbox) : Prop :=
  StronglySorted Z.lt (uids b) /\ Forall (fun u => 0 < u < b_next b) (uids b) /\ 0 < b_next b.
Definition boxinv (b : mbox) : Prop := binv b /\ uinv b.

Definition winv (w : world) : Prop := forall n b, get_box w n = Some b -> boxinv b.

(* the list of clients may hold several entries under one session number: all of them *)
Definition all_s (P : client -> Prop) (b : mbox) (s : Z) : Prop := forall c, In (s, c) (b_clients b) -> P c.
Definition emptied (b : mbox) (s : Z) : Prop := all_s (fun c => c_pend c = []) b s.

Lemma let_pair {A B C} (t : A * B) (f : A -> B -> C) : (let '(a, b) := t in f a b) = f (fst t) (snd t).
Proof. destruct t; reflexivity. Qed.

Lemma zlen_app {A} (a b : list A) : zlen (a ++ b) = zlen a + zlen b.
Proof. unfold zlen. rewrite app_length. lia. Qed.
Lemma zlen_map {A B} (f : A -> B) l : zlen (map f l) = zlen l.
Proof. unfold zlen. rewrite map_length. reflexivity. Qed.
Lemma zlen_nonneg {A} (l : list A) : 0 <= zlen l. Proof. unfold zlen. lia. Qed.
Lemma zlen_cons {A} (x : A) l : zlen (x :: l) = 1 + zlen l.
Proof. unfold zlen. cbn [List.length]. lia. Qed.

Lemma zprefix_app a b : zprefix a (a ++ b) = true.
Proof. induction a as [|x a IH]; cbn [zprefix app]; [reflexivity|]. rewrite Z.eqb_refl, IH. reflexivity. Qed.

Lemma znth_map {A B} (f : A -> B) l i : znth (map f l) i = option_map f (znth l i).
Proof. unfold znth. destruct (i <? 0); [reflexivity|apply nth_error_map]. Qed.
Lemma znth_uids ms i m : znth ms i = Some m -> znth (map m_uid ms) i = Some (m_uid m).
Proof. intros H. rewrite znth_map, H. reflexivity. Qed.
Lemma znth_cons_pos {A} (x : A) l i : 0 < i -> znth (x :: l) i = znth l (i - 1).
Proof.
  intros H. unfold znth. destruct (i <? 0) eqn:E; [lia|]. destruct (i - 1 <? 0) eqn:E'; [lia|].
  replace (Z.to_nat i) with (S (Z.to_nat (i - 1))) by lia. reflexivity.
Qed.
Lemma znth_0 {A} (x : A) l : znth (x :: l) 0 = Some x. Proof. reflexivity. Qed.
Lemma znth_nth {A} (l : list A) i : 0 <= i -> znth l i = nth_error l (Z.to_nat i).
Proof. intros H. unfold znth. destruct (i <? 0) eqn:E; [lia|reflexivity]. Qed.

Lemma map_remove_at {A B} (f : A -> B) i l : map f (remove_at i l) = remove_at i (map f l).
Proof. revert i; induction l as [|x l IH]; intros [|i]; cbn; auto. rewrite IH. reflexivity. Qed.
Lemma length_remove_at {A} i (l : list A) : (i < List.length l)%nat -> List.length (remove_at i l) = (List.length l - 1)%nat.
Proof.
  revert i; induction l as [|x l IH]; intros [|i] H; cbn in *; try lia.
  rewrite IH by lia. lia.
Qed.

Lemma zprefix_len a b : zprefix a b = true -> zlen a <= zlen b.
Proof.
  revert b; induction a as [|x a IH]; intros b H; [unfold zlen; cbn; lia|].
  destruct b as [|y b]; [discriminate|]. cbn [zprefix] in H. apply andb_prop in H. destruct H as [_ H].
  specialize (IH _ H). rewrite !zlen_cons. lia.
Qed.

Lemma sorted_app (a b : list Z) :
  StronglySorted Z.lt a -> StronglySorted Z.lt b -> (forall x y, In x a -> In y b -> x < y) ->
  StronglySorted Z.lt (a ++ b).
Proof.
  induction a as [|x a IH]; intros Ha Hb H; cbn [app]; [exact Hb|].
  inversion Ha as [|? ? Ha' Hx]; subst. constructor.
  - apply IH; trivial. intros; apply H; [right|]; trivial.
  - apply Forall_app; split; [exact Hx|]. apply Forall_forall. intros y Hy. apply H; [left; reflexivity|exact Hy].
Qed.

Lemma remove_at_Forall {A} (P : A -> Prop) i l : Forall P l -> Forall P (remove_at i l).
Proof.
  intros H; revert i; induction H as [|x l Hx Hl IH]; intros [|i]; cbn [remove_at]; trivial.
  constructor; [exact Hx|apply IH].
Qed.
Lemma remove_at_sorted i (l : list Z) : StronglySorted Z.lt l -> StronglySorted Z.lt (remove_at i l).
Proof.
  intros H; revert i; induction H as [|x l Hl IH Hx]; intros [|i]; cbn [remove_at]; try constructor; trivial.
  apply remove_at_Forall, Hx.
Qed.

Lemma zget_none {V} (l : list (Z * V)) s : zalist_get l s = None <-> ~ In s (map fst l).
Proof.
  induction l as [|[k v] l IH]; cbn [zalist_get map fst In]; [tauto|].
  destruct (Z.eqb_spec s k) as [->|N]; [split; [discriminate|tauto]|]. rewrite IH. intuition congruence.
Qed.

Lemma alist_get_set {V} (l : list (string * V)) k v k' :
  alist_get (alist_set l k v) k' = if String.eqb k' k then Some v else alist_get l k'.
Proof.
  induction l as [|[k0 v0] l IH]; cbn [alist_set alist_get]; [reflexivity|].
  destruct (String.eqb_spec k k0) as [<-|N]; cbn [alist_get].
  - destruct (String.eqb k' k); reflexivity.
  - rewrite IH. destruct (String.eqb_spec k' k0) as [->|]; [|reflexivity].
    destruct (String.eqb_spec k0 k); [congruence|reflexivity].
Qed.

Lemma binv_in b s c : binv b -> In (s, c) (b_clients b) -> cinv (uids b) c.
Proof. unfold binv. rewrite Forall_forall. intros H Hin. apply (H _ Hin). Qed.

Lemma apply_resps_app v rs1 rs2 :
  apply_resps v (rs1 ++ rs2) = match apply_resps v rs1 with Some v' => apply_resps v' rs2 | None => None end.
Proof.
  revert v; induction rs1 as [|r rs1 IH]; intros v; cbn [apply_resps app]; [reflexivity|].
  destruct (apply_resp v r); [apply IH|reflexivity].
Qed.

Lemma deliver_cons c r rs : deliver c (r :: rs) = deliver (deliver1 c r) rs.
Proof. reflexivity. Qed.

Lemma deliver_ok c rs v :
  c_ok c = true -> apply_resps (c_view c) rs = Some v ->
  deliver c rs = {| c_idle := c_idle c; c_exam := c_exam c; c_pend := c_pend c; c_view := v; c_ok := true |}.
Proof.
  revert c; induction rs as [|r rs IH]; intros c Hok Ha; cbn [apply_resps] in Ha.
  - injection Ha as <-. rewrite <- Hok. destruct c; reflexivity.
  - rewrite deliver_cons. unfold deliver1. destruct (apply_resp (c_view c) r); [|discriminate].
    rewrite IH; cbn; trivial.
Qed.

Lemma deliver_pend c rs : c_pend (deliver c rs) = c_pend c /\ c_idle (deliver c rs) = c_idle c /\ c_exam (deliver c rs) = c_exam c.
Proof.
  revert c; induction rs as [|r rs IH]; intros c; [cbn; auto|].
  rewrite deliver_cons. destruct (IH (deliver1 c r)) as [H1 [H2 H3]]. rewrite H1, H2, H3.
  unfold deliver1. destruct (apply_resp (c_view c) r); cbn; auto.
Qed.

Lemma cinv_deliver L L' c rs :
  cinv L c -> c_pend c = [] -> apply_resps L rs = Some L' -> cinv L' (deliver c rs).
Proof.
  intros [Hok [Ha Hi]] Hp Hrs. rewrite Hp in Ha. injection Ha as Hv.
  rewrite (deliver_ok c rs L' Hok); [|rewrite Hv; exact Hrs].
  repeat split; cbn; [rewrite Hp; reflexivity|intros _; exact Hp].
Qed.

Lemma cinv_pend L L' c rs :
  cinv L c -> c_idle c = false -> apply_resps L rs = Some L' -> cinv L' (pend c rs).
Proof.
  intros [Hok [Ha Hi]] Hidle Hrs. repeat split; cbn.
  - exact Hok.
  - rewrite apply_resps_app, Ha. exact Hrs.
  - rewrite Hidle. discriminate.
Qed.

Lemma cinv_flush1 L s c : cinv L c -> cinv L (fst (flush1 s c)) /\ c_pend (fst (flush1 s c)) = [] /\ c_view (fst (flush1 s c)) = L.
Proof.
  intros [Hok [Ha Hi]]. unfold flush1. cbn [fst]. rewrite (deliver_ok c _ L Hok Ha). cbn.
  repeat split; trivial.
Qed.

Lemma cinv_set_idle L c i : cinv L c -> (i = true -> c_pend c = []) -> cinv L (set_idle c i).
Proof. intros [Hok [Ha _]] Hp. repeat split; assumption. Qed.

Lemma map_out_fst {A} (f : A -> A * out) l : fst (map_out f l) = map (fun x => fst (f x)) l.
Proof.
  induction l as [|x l IH]; [reflexivity|].
  cbn [map_out map]. rewrite !let_pair. cbn [fst]. rewrite IH. reflexivity.
Qed.

Lemma dispatch_fst b d rs :
  fst (dispatch b d rs) =
  match rs with [] => b | _ => set_clients b (map (fun p => fst (dispatch1 d rs p)) (b_clients b)) end.
Proof. unfold dispatch. destruct rs; [reflexivity|]. rewrite let_pair, map_out_fst. reflexivity. Qed.
Lemma announce_fst b rs : fst (announce b rs) = set_clients b (map (fun p => fst (announce1 rs p)) (b_clients b)).
Proof. unfold announce. rewrite let_pair, map_out_fst. reflexivity. Qed.

Lemma dispatch_msgs b d rs : b_msgs (fst (dispatch b d rs)) = b_msgs b /\ b_next (fst (dispatch b d rs)) = b_next b
  /\ b_vv (fst (dispatch b d rs)) = b_vv b /\ b_disk (fst (dispatch b d rs)) = b_disk b.
Proof. rewrite dispatch_fst. destruct rs; cbn; auto. Qed.
Lemma announce_msgs b rs : b_msgs (fst (announce b rs)) = b_msgs b /\ b_next (fst (announce b rs)) = b_next b
  /\ b_vv (fst (announce b rs)) = b_vv b /\ b_disk (fst (announce b rs)) = b_disk b.
Proof. rewrite announce_fst. cbn. auto. Qed.

(* responses that turn L into L' reach everybody but [dont]; the skipped client keeps its invariant
   only when L' = L, which is the only way [dont] is used (STORE) *)
Lemma dispatch1_cinv L L' dont rs p :
  cinv L (snd p) -> apply_resps L rs = Some L' -> (dont = None \/ L' = L) ->
  cinv L' (snd (fst (dispatch1 dont rs p))).
Proof.
  destruct p as [s c]. cbn [fst snd]. intros Hc Hrs Hd. unfold dispatch1.
  destruct (match dont with Some d => s =? d | None => false end) eqn:Hs.
  - destruct Hd as [->| ->]; [discriminate|exact Hc].
  - destruct (c_idle c) eqn:Hi; cbn [fst snd].
    + apply cinv_deliver with L; trivial. apply Hc, Hi.
    + apply cinv_pend with L; trivial.
Qed.

Lemma announce1_cinv L L' rs p :
  cinv L (snd p) -> apply_resps L rs = Some L' -> cinv L' (snd (fst (announce1 rs p))).
Proof.
  destruct p as [s c]. cbn [fst snd]. intros Hc Hrs. unfold announce1.
  destruct (c_pend c) as [|r0 q] eqn:Hp.
  - cbn [fst snd]. apply cinv_deliver with L; trivial.
  - destruct (c_idle c) eqn:Hi; cbn [fst snd].
    + destruct Hc as [_ [_ H]]. rewrite (H Hi) in Hp. discriminate.
    + apply cinv_pend with L; trivial.
Qed.

Lemma dispatch_clients L L' b dont rs :
  Forall (fun p => cinv L (snd p)) (b_clients b) -> apply_resps L rs = Some L' ->
  (dont = None \/ L' = L) ->
  Forall (fun p => cinv L' (snd p)) (b_clients (fst (dispatch b dont rs))).
Proof.
  intros Hb Hrs Hd. rewrite dispatch_fst. destruct rs as [|r rs'].
  - injection Hrs as <-. exact Hb.
  - cbn [set_clients b_clients]. rewrite Forall_map. eapply Forall_impl; [|exact Hb].
    intros p Hp. apply dispatch1_cinv with L; trivial.
Qed.

Lemma announce_clients L L' b rs :
  Forall (fun p => cinv L (snd p)) (b_clients b) -> apply_resps L rs = Some L' ->
  Forall (fun p => cinv L' (snd p)) (b_clients (fst (announce b rs))).
Proof.
  intros Hb Hrs. rewrite announce_fst. cbn [set_clients b_clients]. rewrite Forall_map.
  eapply Forall_impl; [|exact Hb]. intros p Hp. apply announce1_cinv with L; trivial.
Qed.

Lemma dispatch_in b d rs s c' :
  In (s, c') (b_clients (fst (dispatch b d rs))) ->
  exists c, In (s, c) (b_clients b) /\
    (c' = c \/ d <> Some s /\ (c_idle c = true /\ c' = deliver c rs \/ c_idle c = false /\ c' = pend c rs)).
Proof.
  rewrite dispatch_fst. destruct rs as [|r rs']; [eauto|].
  cbn [set_clients b_clients]. rewrite in_map_iff. intros [[s0 c0] [Heq Hin]]. unfold dispatch1 in Heq.
  destruct (match d with Some d0 => s0 =? d0 | None => false end) eqn:Ed; [injection Heq as -> <-; eauto|].
  assert (N : d <> Some s0) by (intros ->; rewrite Z.eqb_refl in Ed; discriminate).
  destruct (c_idle c0) eqn:Ei; injection Heq as -> <-; eauto 7.
Qed.

Lemma announce_in b rs s c' :
  In (s, c') (b_clients (fst (announce b rs))) ->
  exists c, In (s, c) (b_clients b) /\
    (c' = deliver c rs /\ (c_pend c = [] \/ c_idle c = true) \/ c' = pend c rs /\ c_pend c <> [] /\ c_idle c = false).
Proof.
  rewrite announce_fst. cbn [set_clients b_clients]. rewrite in_map_iff. intros [[s0 c0] [Heq Hin]]. unfold announce1 in Heq.
  destruct (c_pend c0) eqn:Ep; [|destruct (c_idle c0) eqn:Ei]; injection Heq as -> <-; exists c0;
    (split; [exact Hin|]); auto.
  right. rewrite Ep. repeat split; [discriminate|exact Ei].
Qed.

(* the test [apply_resp] makes of a FETCH response: the ghost UID is the one the view has at that position *)
Lemma uid_at_iff view i g view' :
  match znth view i with Some u => if u =? g then Some view else None | None => None end = Some view' <->
  znth view i = Some g /\ view' = view.
Proof.
  destruct (znth view i) as [u|]; [|split; [discriminate|intros [[=] _]]].
  destruct (Z.eqb_spec u g) as [->|N]; split.
  - intros [= <-]. auto.
  - intros [_ ->]. reflexivity.
  - discriminate.
  - intros [[= E] _]. contradiction.
Qed.

Lemma apply_resp_legal view r view' :
  apply_resp view r = Some view' ->
  match r with
  | RExists n g => zlen view <= n /\ zprefix view view' = true /\ zlen view' = n
  | RExpunge n => 1 <= n <= zlen view /\ view' = remove_at (Z.to_nat (n - 1)) view
  | RFetch n _ _ g => znth view (n - 1) = Some g /\ view' = view
  | RBody n _ _ _ g => znth view (n - 1) = Some g /\ view' = view
  | _ => view' = view
  end.
Proof.
  destruct r; cbn [apply_resp]; intros H; try (inversion H; reflexivity).
  - destruct ((zlen g =? n) && zprefix view g) eqn:E; [|discriminate]. inversion H; subst.
    apply andb_prop in E. destruct E as [E1 E2]. pose proof (zprefix_len _ _ E2). repeat split; trivial; lia.
  - destruct ((1 <=? n) && (n <=? zlen view)) eqn:E; [|discriminate]. inversion H; subst. split; [lia|reflexivity].
  - apply uid_at_iff, H.
  - apply uid_at_iff, H.
Qed.

(* the responses that leave the length and order of a view alone *)
Definition is_neutral (r : resp) : bool := match r with RExists _ _ | RExpunge _ => false | _ => true end.

Lemma neutral_apply v r v' : is_neutral r = true -> apply_resp v r = Some v' -> v' = v.
Proof. intros Hn H. apply apply_resp_legal in H. destruct r; try discriminate Hn; tauto. Qed.

Lemma neutral_view rs : forall v L, forallb is_neutral rs = true -> apply_resps v rs = Some L -> L = v.
Proof.
  induction rs as [|r rs IH]; intros v L Hn Ha; cbn [apply_resps forallb] in *.
  - inversion Ha; reflexivity.
  - apply andb_prop in Hn. destruct Hn as [Hr Hrs].
    destruct (apply_resp v r) as [v1|] eqn:E; [|discriminate].
    apply neutral_apply in E; [|exact Hr]. subst v1. apply IH; trivial.
Qed.

(* r is legal on the view L and leaves it as it is: what a FETCH response must be on the server's list *)
Definition valid_on (L : list Z) (r : resp) : Prop := apply_resp L r = Some L.
Lemma valid_all L rs : Forall (valid_on L) rs -> apply_resps L rs = Some L.
Proof. induction 1 as [|r rs Hr _ IH]; cbn [apply_resps]; [reflexivity|]. rewrite Hr. exact IH. Qed.

Lemma fetch_note_valid L pos m show : znth L (pos - 1) = Some (m_uid m) -> valid_on L (fetch_note pos m show).
Proof. intros H. apply uid_at_iff. auto. Qed.
Lemma body_valid L pos o cid date g : znth L (pos - 1) = Some g -> valid_on L (RBody pos o cid date g).
Proof. intros H. apply uid_at_iff. auto. Qed.

(* the UIDs of l are those L has from position pos on, the form in which [notes_at]/[notes_from] walk a list *)
Definition sits (L : list Z) (pos : Z) (l : list msg) : Prop :=
  forall i m, nth_error l i = Some m -> znth L (pos - 1 + Z.of_nat i) = Some (m_uid m).

Lemma sits_cons L pos m l : sits L pos (m :: l) -> znth L (pos - 1) = Some (m_uid m) /\ sits L (pos + 1) l.
Proof.
  intros H. split.
  - rewrite <- (Z.add_0_r (pos - 1)). exact (H O m eq_refl).
  - intros i m' Hi. replace (pos + 1 - 1 + Z.of_nat i) with (pos - 1 + Z.of_nat (S i)) by lia. exact (H (S i) m' Hi).
Qed.

Lemma sits_uids ms : sits (map m_uid ms) 1 ms.
Proof.
  intros i m H. rewrite znth_map. unfold znth. destruct (1 - 1 + Z.of_nat i <? 0) eqn:E; [lia|].
  replace (Z.to_nat (1 - 1 + Z.of_nat i)) with i by lia. rewrite H. reflexivity.
Qed.

Lemma notes_at_valid L sel show l : forall pos, sits L pos l -> Forall (valid_on L) (notes_at sel l pos show).
Proof.
  induction l as [|m l IH]; intros pos H; cbn [notes_at]; [constructor|]. apply sits_cons in H as [H0 H].
  apply Forall_app; split; [|apply IH, H]. destruct (zmem pos sel); repeat constructor. apply fetch_note_valid, H0.
Qed.

Lemma notes_from_valid L want show l : forall pos, sits L pos l -> Forall (valid_on L) (notes_from l pos want show).
Proof.
  induction l as [|m l IH]; intros pos H; cbn [notes_from]; [constructor|]. apply sits_cons in H as [H0 H].
  apply Forall_app; split; [|apply IH, H]. destruct (want m); repeat constructor. apply fetch_note_valid, H0.
Qed.

Lemma notes_from_neutral want l pos show : forallb is_neutral (notes_from l pos want show) = true.
Proof.
  revert pos; induction l as [|m l IH]; intros pos; cbn [notes_from]; [reflexivity|].
  rewrite forallb_app, IH. destruct (want m); reflexivity.
Qed.

Lemma cinv_neutral_view L c : cinv L c -> forallb is_neutral (c_pend c) = true -> c_view c = L.
Proof. intros [_ [Ha _]] Hn. symmetry. exact (neutral_view _ _ _ Hn Ha). Qed.

Lemma cinv_deliver_neutral L c rs :
  cinv L c -> forallb is_neutral (c_pend c) = true -> Forall (valid_on L) rs -> cinv L (deliver c rs).
Proof.
  intros Hc Hn Hv. pose proof (cinv_neutral_view L c Hc Hn) as Hview. destruct Hc as [Hok [Ha Hi]].
  rewrite (deliver_ok c rs L Hok); [|rewrite Hview; apply valid_all; exact Hv].
  repeat split; cbn; trivial. rewrite <- Hview at 1. exact Ha.
Qed.

Lemma map_at_uids f sel l pos : (forall m, m_uid (f m) = m_uid m) -> map m_uid (map_at f sel l pos) = map m_uid l.
Proof.
  intros Hf. revert pos; induction l as [|m l IH]; intros pos; cbn [map_at map]; [reflexivity|].
  rewrite IH. destruct (zmem pos sel); [rewrite Hf|]; reflexivity.
Qed.
Lemma in_map_at f sl l pos m' : In m' (map_at f sl l pos) -> exists m, In m l /\ (m' = m \/ m' = f m).
Proof.
  revert pos; induction l as [|m l IH]; intros pos H; cbn [map_at] in H; [destruct H|].
  destruct H as [H|H].
  - exists m. split; [left; reflexivity|]. destruct (zmem pos sl); [right|left]; symmetry; exact H.
  - destruct (IH _ H) as [m0 [H1 H2]]. exists m0. split; [right; exact H1|exact H2].
Qed.

Lemma boxinv_ext b b' :
  uids b' = uids b -> b_next b' = b_next b -> b_clients b' = b_clients b -> boxinv b -> boxinv b'.
Proof. unfold boxinv, binv, uinv. intros -> -> ->. trivial. Qed.

Lemma with_disk_inv b d : boxinv b -> boxinv (with_disk b d).
Proof. apply boxinv_ext; reflexivity. Qed.

Lemma set_msgs_same_uids b ms : map m_uid ms = uids b -> boxinv b -> boxinv (set_msgs b ms).
Proof. intros H. apply boxinv_ext; [exact H|reflexivity..]. Qed.

Lemma renumber_uids l k : map m_uid (renumber l k) = map m_uid l.
Proof. revert k; induction l as [|m l IH]; intros k; cbn [renumber map]; [reflexivity|]. rewrite IH. reflexivity. Qed.

Lemma maybe_pack_inv w b : boxinv b -> boxinv (maybe_pack w b).
Proof.
  intros H. unfold maybe_pack. destruct (should_pack w b); [|exact H].
  apply set_msgs_same_uids; [apply renumber_uids|exact H].
Qed.

Lemma assign_uids_spec l u :
  StronglySorted Z.lt (map m_uid (assign_uids l u)) /\
  Forall (fun x => u <= x < u + zlen l) (map m_uid (assign_uids l u)) /\
  zlen (assign_uids l u) = zlen l.
Proof.
  revert u; induction l as [|m l IH]; intros u; cbn [assign_uids map].
  - repeat split; constructor.
  - destruct (IH (u + 1)) as [Hs [Hf Hl]]. rewrite !zlen_cons, Hl. repeat split.
    + constructor; [exact Hs|]. eapply Forall_impl; [|exact Hf]. intros a Ha. cbn [m_uid]. cbv beta in Ha. lia.
    + constructor; [cbn [m_uid]; pose proof (zlen_nonneg l); lia|].
      eapply Forall_impl; [|exact Hf]. intros a Ha. cbv beta in *. lia.
Qed.

Lemma resync_nodisk b : b_disk b = [] -> resync b = (b, []).
Proof. intros H. unfold resync. rewrite H. reflexivity. Qed.

Definition fresh_of (b : mbox) : list msg := assign_uids (sort_by_key (b_disk b)) (b_next b).

(* the mailbox once the new files are taken in, before any session is told *)
Definition grown (b : mbox) : mbox :=
  {| b_msgs := b_msgs b ++ fresh_of b; b_next := b_next b + zlen (fresh_of b); b_vv := b_vv b;
     b_clients := b_clients b; b_disk := [] |}.

Lemma resync_fst b :
  b_disk b <> [] ->
  fst (resync b) =
  fst (dispatch (fst (announce (grown b) [RExists (zlen (b_msgs (grown b))) (uids (grown b));
                                           RRecent (count_seq "Recent" (b_msgs (grown b)))]))
                None (notes_from (b_msgs (grown b)) 1 (fun m => b_next b <=? m_uid m) false)).
Proof.
  intros Hd. unfold resync. destruct (b_disk b) eqn:E; [congruence|]. rewrite <- E, !let_pair. reflexivity.
Qed.

Lemma resync_data b :
  b_msgs (fst (resync b)) = b_msgs b ++ fresh_of b /\ b_next (fst (resync b)) = b_next b + zlen (fresh_of b) /\
  b_vv (fst (resync b)) = b_vv b /\ b_disk (fst (resync b)) = [].
Proof.
  destruct (b_disk b) as [|d0 dl] eqn:E.
  - rewrite resync_nodisk by exact E. unfold fresh_of. rewrite E. cbn. rewrite app_nil_r, Z.add_0_r. auto.
  - rewrite resync_fst, dispatch_fst, announce_fst by congruence. destruct (notes_from _ _ _ _); cbn; auto.
Qed.

Lemma resync_binv b : binv b -> binv (fst (resync b)).
Proof.
  intros Hb. destruct (b_disk b) eqn:E; [rewrite resync_nodisk; trivial|].
  assert (Hd : b_disk b <> []) by congruence.
  unfold binv, uids. rewrite (proj1 (resync_data b)), (resync_fst b Hd).
  apply dispatch_clients with (uids (grown b)); [|apply valid_all, notes_from_valid, sits_uids|left; reflexivity].
  apply announce_clients with (uids b); [exact Hb|].
  cbn [apply_resps apply_resp]. unfold uids, grown. cbn [b_msgs].
  rewrite zlen_map, Z.eqb_refl, map_app, zprefix_app. reflexivity.
Qed.

Lemma resync_uinv b : uinv b -> uinv (fst (resync b)).
Proof.
  intros [Hs [Hf Hn]]. destruct (resync_data b) as [S1 [S2 _]].
  unfold uinv, uids. rewrite S1, S2, map_app.
  destruct (assign_uids_spec (sort_by_key (b_disk b)) (b_next b)) as [As [Af Al]].
  fold (fresh_of b) in As, Af, Al. repeat split.
  - apply sorted_app; trivial. intros x y Hx Hy.
    rewrite Forall_forall in Hf, Af. specialize (Hf x Hx). specialize (Af y Hy). cbn in *. lia.
  - apply Forall_app; split.
    + eapply Forall_impl; [|exact Hf]. cbn. pose proof (zlen_nonneg (fresh_of b)). intros; lia.
    + eapply Forall_impl; [|exact Af]. cbn. rewrite Al. intros; lia.
  - pose proof (zlen_nonneg (fresh_of b)). lia.
Qed.

Lemma resync_inv b : boxinv b -> boxinv (fst (resync b)).
Proof. intros [H1 H2]. split; [apply resync_binv|apply resync_uinv]; trivial. Qed.

Lemma resync_neutral b s :
  emptied b s -> all_s (fun c => forallb is_neutral (c_pend c) = true) (fst (resync b)) s.
Proof.
  intros H0 c Hin. destruct (b_disk b) eqn:E.
  - rewrite resync_nodisk in Hin by exact E. rewrite (H0 _ Hin). reflexivity.
  - rewrite resync_fst in Hin by congruence.
    apply dispatch_in in Hin as (c2 & Hin & Hc). apply announce_in in Hin as (c1 & Hin & [[E2 _]|[_ [N _]]]);
      [|destruct (N (H0 _ Hin))].
    assert (Hp2 : c_pend c2 = []) by (rewrite E2, (proj1 (deliver_pend _ _)); exact (H0 _ Hin)).
    destruct Hc as [->|[_ [[_ ->]|[_ ->]]]]; [rewrite Hp2; reflexivity| |].
    + rewrite (proj1 (deliver_pend _ _)), Hp2. reflexivity.
    + cbn [pend c_pend]. rewrite Hp2. apply notes_from_neutral.
Qed.

(* ps descends strictly and lies within 1..n: [expunge] removes the highest position first, so that every later one is
   still in range when its turn comes *)
Fixpoint desc_below (n : Z) (ps : list Z) : Prop :=
  match ps with [] => True | p :: ps' => 1 <= p <= n /\ desc_below (p - 1) ps' end.
Lemma desc_below_mono n m ps : n <= m -> desc_below n ps -> desc_below m ps.
Proof. destruct ps as [|p ps]; cbn [desc_below]; [trivial|]. intros H [H1 H2]. split; [lia|exact H2]. Qed.

Lemma positions_desc_spec del l : forall pos acc,
  1 <= pos -> desc_below (pos - 1) acc -> desc_below (pos - 1 + zlen l) (positions_desc del l pos acc).
Proof.
  induction l as [|m l IH]; intros pos acc Hp Ha; cbn [positions_desc].
  - unfold zlen; cbn. rewrite Z.add_0_r. exact Ha.
  - rewrite zlen_cons. replace (pos - 1 + (1 + zlen l)) with (pos + 1 - 1 + zlen l) by lia.
    apply IH; [lia|]. replace (pos + 1 - 1) with pos by lia.
    destruct (del m).
    + cbn [desc_below]. split; [lia|exact Ha].
    + apply desc_below_mono with (pos - 1); [lia|exact Ha].
Qed.

Lemma set_msgs_clients b ms : b_clients (set_msgs b ms) = b_clients b. Proof. reflexivity. Qed.

Lemma expunge_one_inv b p :
  1 <= p <= zlen (b_msgs b) -> boxinv b ->
  boxinv (fst (dispatch (set_msgs b (remove_at (Z.to_nat (p - 1)) (b_msgs b))) None [RExpunge p])).
Proof.
  intros Hp [Hb [Hs [Hf Hn]]].
  destruct (dispatch_msgs (set_msgs b (remove_at (Z.to_nat (p - 1)) (b_msgs b))) None [RExpunge p]) as [M1 [M2 _]].
  unfold boxinv, binv, uinv, uids. rewrite M1, M2. cbn [set_msgs b_msgs b_next]. rewrite map_remove_at. split.
  - apply dispatch_clients with (uids b); [exact Hb| |left; reflexivity].
    cbn [apply_resps apply_resp]. unfold uids. rewrite zlen_map.
    destruct ((1 <=? p) && (p <=? zlen (b_msgs b))) eqn:E; [reflexivity|lia].
  - repeat split; [apply remove_at_sorted, Hs|apply remove_at_Forall, Hf|exact Hn].
Qed.

Lemma expunge_loop_inv ps : forall b i,
  desc_below (zlen (b_msgs b)) ps -> boxinv b -> boxinv (fst (expunge_loop b ps i)).
Proof.
  induction ps as [|p ps IH]; intros b i Hd Hb; cbn [expunge_loop]; [exact Hb|].
  destruct Hd as [Hp Hd]. rewrite !let_pair. cbn [fst]. apply IH; [|apply expunge_one_inv; assumption].
  rewrite (proj1 (dispatch_msgs _ _ _)). cbn [set_msgs b_msgs]. unfold zlen in *.
  rewrite length_remove_at by lia. apply desc_below_mono with (p - 1); [lia|exact Hd].
Qed.

Lemma expunge_inv b del : boxinv b -> boxinv (fst (expunge b del)).
Proof.
  intros Hb. unfold expunge. apply expunge_loop_inv; [|exact Hb].
  pose proof (positions_desc_spec del (b_msgs b) 1 []) as H. cbn [desc_below] in H.
  replace (1 - 1 + zlen (b_msgs b)) with (zlen (b_msgs b)) in H by lia. apply H; [lia|trivial].
Qed.

Lemma uids_set_clients b cs : uids (set_clients b cs) = uids b. Proof. reflexivity. Qed.

Lemma upd_client_in b s f s' c' :
  In (s', c') (b_clients (upd_client b s f)) ->
  exists c, In (s', c) (b_clients b) /\ c' = (if s' =? s then f c else c).
Proof.
  unfold upd_client. cbn [set_clients b_clients]. rewrite in_map_iff. intros [[s0 c0] [E Hin]].
  cbn [fst snd] in E. destruct (s0 =? s) eqn:Es; injection E as -> <-; exists c0; rewrite Es; auto.
Qed.

Lemma upd_client_all_s (P Q : client -> Prop) b s f :
  (forall c, P c -> Q (f c)) -> all_s P b s -> all_s Q (upd_client b s f) s.
Proof.
  intros Hf H c Hin. apply upd_client_in in Hin as (c0 & Hin & ->). rewrite Z.eqb_refl. exact (Hf _ (H _ Hin)).
Qed.

Lemma upd_client_binv b s f :
  binv b -> (forall c, In (s, c) (b_clients b) -> cinv (uids b) c -> cinv (uids b) (f c)) ->
  binv (upd_client b s f).
Proof.
  intros Hb Hf. unfold binv, upd_client. cbn [set_clients b_clients]. rewrite uids_set_clients.
  rewrite Forall_map. rewrite Forall_forall. intros [s0 c0] Hin.
  pose proof (binv_in _ _ _ Hb Hin) as Hc. cbn [fst snd].
  destruct (Z.eqb_spec s0 s) as [->|_]; cbn [snd]; [apply Hf|]; assumption.
Qed.

Lemma upd_client_uinv b s f : uinv b -> uinv (upd_client b s f).
Proof. trivial. Qed.

Lemma get_client_in b s c : get_client b s = Some c -> In (s, c) (b_clients b).
Proof.
  unfold get_client. induction (b_clients b) as [|[s0 c0] l IH]; cbn [zalist_get]; [discriminate|].
  destruct (Z.eqb_spec s s0) as [->|_]; [intros [= ->]; left; reflexivity|intros H; right; apply IH, H].
Qed.
Lemma get_client_none b s c : get_client b s = None -> ~ In (s, c) (b_clients b).
Proof. intros H Hin. apply zget_none in H. exact (H (in_map fst _ _ Hin)). Qed.

Lemma flush_in b s c' :
  In (s, c') (b_clients (fst (flush b s))) -> exists c, get_client b s = Some c /\ c' = fst (flush1 s c).
Proof.
  unfold flush. destruct (get_client b s) as [c|] eqn:E.
  - rewrite let_pair. cbn [fst]. intros Hin. apply upd_client_in in Hin as (c1 & _ & ->). rewrite Z.eqb_refl. eauto.
  - intros Hin. destruct (get_client_none _ _ _ E Hin).
Qed.

Lemma flush_empties b s : emptied (fst (flush b s)) s.
Proof. intros c Hin. apply flush_in in Hin as (c0 & _ & ->). reflexivity. Qed.

Lemma flush_inv b s : boxinv b -> boxinv (fst (flush b s)).
Proof.
  intros [Hb Hu]. unfold flush. destruct (get_client b s) as [c|] eqn:E; [|split; trivial].
  rewrite let_pair. cbn [fst]. split; [|exact Hu]. apply upd_client_binv; [exact Hb|]. intros _ _ _.
  apply cinv_flush1, (binv_in b s), get_client_in, E. exact Hb.
Qed.

Lemma flush_msgs b s : b_msgs (fst (flush b s)) = b_msgs b /\ b_next (fst (flush b s)) = b_next b /\
  b_vv (fst (flush b s)) = b_vv b /\ b_disk (fst (flush b s)) = b_disk b.
Proof. unfold flush. destruct (get_client b s); cbn; auto. Qed.

Lemma flush_view b s c : binv b -> In (s, c) (b_clients (fst (flush b s))) -> c_view c = uids b.
Proof.
  intros Hb Hin. apply flush_in in Hin as (c0 & E & ->). apply cinv_flush1, (binv_in b s), get_client_in, E. exact Hb.
Qed.

Lemma dispatch_kept_skipped P b s rs : all_s P b s -> all_s P (fst (dispatch b (Some s) rs)) s.
Proof. intros H c Hin. apply dispatch_in in Hin as (c0 & Hin & [->|[N _]]); [exact (H _ Hin)|congruence]. Qed.

(* what dispatch, announce, resync and expunge do to a session is to deliver or to queue responses: a property
   of the entries under s that both keep, for responses satisfying R, is kept when the responses handed out do *)
Section Kept.
Variable R : resp -> Prop.
Variable P : client -> Prop.
Hypothesis Pdeliver : forall c rs, (forall r, In r rs -> R r) -> P c -> P (deliver c rs).
Hypothesis Ppend : forall c rs, (forall r, In r rs -> R r) -> P c -> P (pend c rs).

Lemma dispatch_kept b d rs s : (forall r, In r rs -> R r) -> all_s P b s -> all_s P (fst (dispatch b d rs)) s.
Proof. intros Hrs H c Hin. apply dispatch_in in Hin as (c0 & Hin & [->|[_ [[_ ->]|[_ ->]]]]); auto. Qed.
Lemma announce_kept b rs s : (forall r, In r rs -> R r) -> all_s P b s -> all_s P (fst (announce b rs)) s.
Proof. intros Hrs H c Hin. apply announce_in in Hin as (c0 & Hin & [[-> _]|[-> _]]); auto. Qed.
Lemma resync_kept b s :
  (forall n g, R (RExists n g)) -> (forall k, R (RRecent k)) ->
  (forall l pos want show r, In r (notes_from l pos want show) -> R r) ->
  all_s P b s -> all_s P (fst (resync b)) s.
Proof.
  intros He Hr Hn H. destruct (b_disk b) eqn:E; [rewrite resync_nodisk; trivial|].
  rewrite resync_fst by congruence. apply dispatch_kept; [apply Hn|]. apply announce_kept; [|exact H].
  intros r [<-|[<-|[]]]; [apply He|apply Hr].
Qed.
Lemma expunge_loop_kept ps : (forall p, R (RExpunge p)) -> forall b i s, all_s P b s -> all_s P (fst (expunge_loop b ps i)) s.
Proof.
  intros He. induction ps as [|p ps IH]; intros b i s H; cbn [expunge_loop]; [exact H|].
  rewrite !let_pair. cbn [fst]. apply IH, dispatch_kept; [intros r [<-|[]]; apply He|exact H].
Qed.
Lemma expunge_kept b del s : (forall p, R (RExpunge p)) -> all_s P b s -> all_s P (fst (expunge b del)) s.
Proof. intros He. apply expunge_loop_kept, He. Qed.
End Kept.

Lemma set_idle_inv b s i :
  boxinv b -> (i = true -> emptied b s) -> boxinv (upd_client b s (fun c => set_idle c i)).
Proof.
  intros [Hb Hu] Hi. split; [|exact Hu]. apply upd_client_binv; [exact Hb|]. intros c Hin Hc.
  apply cinv_set_idle; [exact Hc|]. intros ->. apply Hi; trivial.
Qed.

Lemma uids_of_dispatch b d rs : uids (fst (dispatch b d rs)) = uids b.
Proof. unfold uids. destruct (dispatch_msgs b d rs) as [H _]. rewrite H. reflexivity. Qed.

Lemma dispatch_valid_inv b d rs :
  boxinv b -> Forall (valid_on (uids b)) rs -> boxinv (fst (dispatch b d rs)).
Proof.
  intros [Hb Hu] Hv. unfold boxinv, binv, uinv. rewrite uids_of_dispatch, (proj1 (proj2 (dispatch_msgs b d rs))).
  split; [|exact Hu]. apply dispatch_clients with (uids b); [exact Hb|apply valid_all, Hv|right; reflexivity].
Qed.

Lemma notes_at_valid_ms sl ms show : Forall (valid_on (map m_uid ms)) (notes_at sl ms 1 show).
Proof. apply notes_at_valid, sits_uids. Qed.

Lemma deliver_to_issuer_inv b s rs :
  boxinv b -> all_s (fun c => forallb is_neutral (c_pend c) = true) b s -> Forall (valid_on (uids b)) rs ->
  boxinv (upd_client b s (fun c => deliver c rs)).
Proof.
  intros [Hb Hu] Hn Hv. split; [|exact Hu].
  apply upd_client_binv; [exact Hb|]. intros c Hin Hc. apply cinv_deliver_neutral; trivial. apply Hn; exact Hin.
Qed.

Lemma empty_neutral b s : emptied b s -> all_s (fun c => forallb is_neutral (c_pend c) = true) b s.
Proof. intros H c Hin. rewrite (H c Hin). reflexivity. Qed.

Lemma get_set_box w n b n' : get_box (set_box w n b) n' = if String.eqb n' n then Some b else get_box w n'.
Proof. unfold get_box, set_box. cbn [w_boxes]. apply alist_get_set. Qed.

Lemma winv_set_box w n b : winv w -> boxinv b -> winv (set_box w n b).
Proof.
  intros Hw Hb n' b' H. rewrite get_set_box in H. destruct (String.eqb n' n); [inversion H; subst; exact Hb|].
  apply (Hw n' b' H).
Qed.

(* [let_pair] for a goal of this shape, without the search for the place to rewrite *)
Lemma winv_let {A B} (t : A * B) (f : A -> B -> world * out) :
  winv (fst (f (fst t) (snd t))) -> winv (fst (let '(a, b) := t in f a b)).
Proof. rewrite let_pair. trivial. Qed.

Lemma remove_client_inv b s : boxinv b -> boxinv (set_clients b (zalist_del (b_clients b) s)).
Proof.
  intros [Hb Hu]. split; [|exact Hu]. unfold binv in *. cbn [set_clients b_clients]. rewrite uids_set_clients.
  unfold zalist_del. rewrite Forall_forall in *. intros p Hp. apply filter_In in Hp. apply Hb. tauto.
Qed.

Lemma unselect_inv w s : winv w -> winv (unselect w s).
Proof.
  intros Hw. unfold unselect. destruct (sel w s) as [n|]; [|exact Hw].
  destruct (get_box w n) as [b|] eqn:E; [|exact Hw].
  apply winv_set_box; [exact Hw|]. apply remove_client_inv. apply (Hw n b E).
Qed.

Lemma sel_inv w s (o : out) (k : string -> mbox -> world * out) :
  winv w -> (forall n b, get_box w n = Some b -> boxinv b -> winv (fst (k n b))) ->
  winv (fst (match sel w s with
             | Some n => match get_box w n with Some b => k n b | None => (w, o) end
             | None => (w, o)
             end)).
Proof.
  intros Hw Hk. destruct (sel w s) as [n|]; [|exact Hw].
  destruct (get_box w n) as [b|] eqn:E; [exact (Hk n b E (Hw n b E))|exact Hw].
Qed.

Lemma in_mbox_inv w s k :
  winv w -> (forall n b, get_box w n = Some b -> winv (fst (k n b))) -> winv (fst (in_mbox w s k)).
Proof. intros Hw Hk. apply sel_inv; auto. Qed.

Lemma add_client_inv b s exam :
  boxinv b ->
  boxinv (set_clients b (b_clients b ++ [(s, {| c_idle := false; c_exam := exam; c_pend := [];
                                               c_view := map m_uid (b_msgs b); c_ok := true |})])).
Proof.
  intros [Hb Hu]. split; [|exact Hu]. unfold binv in *. cbn [set_clients b_clients]. rewrite uids_set_clients.
  apply Forall_app; split; [exact Hb|]. constructor; [|constructor].
  cbn [snd]. split; [reflexivity|]. split; [reflexivity|]. cbn. discriminate.
Qed.
