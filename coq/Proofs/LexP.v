(* Proofs/LexP.v — lemmas about the scanners of Model/Lex.v: one maximal-munch lemma per scanner
   (scanner (printed token ++ rest) = token, rest), what a successful scan says about its result, and the
   facts about the modelled Python primitives. *)
From Asimap Require Import Base.Res Base.Bytes Model.Lex Spec.Grammar.
From Coq Require Import Lia ZArith List Bool ZifyBool.
Import ListNotations.
Open Scope Z_scope.

(* lia knows neither / nor mod *)
Ltac div_lia := Z.div_mod_to_equations; lia.

(* a printed text, a nest of ++ and ::, in the form  a ++ c :: b ++ ... ++ rest  in which the scanner lemmas are stated *)
Ltac napp := repeat (rewrite <- app_assoc || rewrite <- app_comm_cons || rewrite app_nil_l).

Lemma firstn_len_app {A} (v r : list A) : firstn (List.length v) (v ++ r) = v.
Proof. induction v; cbn; [destruct r; reflexivity|f_equal; assumption]. Qed.
Lemma skipn_len_app {A} (v r : list A) : skipn (List.length v) (v ++ r) = r.
Proof. induction v; cbn; [reflexivity|assumption]. Qed.

Lemma forallb_impl {A} (p q : A -> bool) l : (forall x, p x = true -> q x = true) -> forallb p l = true -> forallb q l = true.
Proof.
  intros H; induction l as [|x l IH]; cbn [forallb]; [auto|]. intros E. apply andb_true_iff in E. destruct E as [Hx Hl].
  rewrite (H _ Hx), (IH Hl). reflexivity.
Qed.

Lemma forallb_true {A} (l : list A) : forallb (fun _ => true) l = true.
Proof. induction l; [reflexivity|assumption]. Qed.

Lemma beq_eq a b : beq a b = true -> a = b.
Proof.
  revert b; induction a as [|x a IH]; intros [|y b] H; cbn [beq] in H; try discriminate; [reflexivity|].
  apply andb_true_iff in H; destruct H as [H1 H2]. apply Z.eqb_eq in H1. subst. f_equal. apply IH. exact H2.
Qed.
Lemma beq_refl a : beq a a = true.
Proof. induction a as [|x a IH]; cbn [beq]; [reflexivity|]. rewrite Z.eqb_refl. exact IH. Qed.

Lemma beq_sym a : forall b, beq a b = beq b a.
Proof.
  induction a as [|x a IH]; intros [|y b]; cbn [beq]; try reflexivity. rewrite Z.eqb_sym, IH. reflexivity.
Qed.

(* the characters that end a token inside a command: SP, ")" and CR (and the end of the input) *)
Definition stop_char (c : Z) : bool := (c =? 32) || (c =? 41) || (c =? 13).
Definition stops (rest : list Z) : bool := match rest with [] => true | c :: _ => stop_char c end.
Definition ends (p : Z -> bool) (rest : list Z) : Prop := match rest with [] => True | c :: _ => p c = false end.

(* A character class is a boolean combination of comparisons with constants: once unfolded, a fact
   about classes is linear arithmetic, which lia (with ZifyBool) decides. *)
Create HintDb chars.
#[export] Hint Unfold stop_char atom_char tag_char list_char msgset_char fetch_att_char search_char
  is_alpha is_upper is_lower is_digit in_range : chars.

Lemma stop_char_iff c : stop_char c = true <-> c = 32 \/ c = 41 \/ c = 13.
Proof. unfold stop_char. lia. Qed.

(* for a class p without stop characters, which three evaluations of p show *)
Lemma stops_ends (p : Z -> bool) rest : (p 32 || p 41 || p 13) = false -> stops rest = true -> ends p rest.
Proof.
  intros Hp Hs. destruct rest as [|c r]; [exact I|]. cbn [stops ends] in *.
  apply orb_false_iff in Hp. destruct Hp as [Hp H13]. apply orb_false_iff in Hp. destruct Hp as [H32 H41].
  apply stop_char_iff in Hs. destruct Hs as [-> | [-> | ->]]; assumption.
Qed.

Lemma span_app p a r : forallb p a = true -> ends p r -> span p (a ++ r) = (a, r).
Proof.
  induction a as [|c a IH]; intros Ha Hr; cbn [app span forallb] in *.
  - destruct r as [|c r]; [reflexivity|]. cbn [span]. cbn in Hr. rewrite Hr. reflexivity.
  - apply andb_true_iff in Ha; destruct Ha as [Hc Ha]. rewrite Hc, (IH Ha Hr). reflexivity.
Qed.

Lemma span_split p s : fst (span p s) ++ snd (span p s) = s.
Proof.
  induction s as [|c s IH]; cbn [span]; [reflexivity|]. destruct (p c); [|reflexivity].
  destruct (span p s) as [a r]. cbn [fst snd app] in *. rewrite IH. reflexivity.
Qed.
Lemma span_all p s : forallb p (fst (span p s)) = true.
Proof.
  induction s as [|c s IH]; cbn [span]; [reflexivity|]. destruct (p c) eqn:E; [|reflexivity].
  destruct (span p s) as [a r]. cbn [fst forallb] in *. rewrite E, IH. reflexivity.
Qed.
Lemma span_lengths p s : (List.length (fst (span p s)) + List.length (snd (span p s)))%nat = List.length s.
Proof. rewrite <- app_length, span_split. reflexivity. Qed.

Lemma p_many1_try p s : p_many1 p s = match try_many1 p s with Some (a, r) => ROk a r | None => RBad end.
Proof. unfold p_many1, try_many1. destruct (span p s) as [[|c a] r]; reflexivity. Qed.

Lemma try_many1_app p a r : a <> [] -> forallb p a = true -> ends p r -> try_many1 p (a ++ r) = Some (a, r).
Proof.
  intros Hne Ha Hr. unfold try_many1. rewrite (span_app _ _ _ Ha Hr).
  destruct a; [contradiction|reflexivity].
Qed.
Lemma p_many1_app p a r : a <> [] -> forallb p a = true -> ends p r -> p_many1 p (a ++ r) = ROk a r.
Proof. intros Hne Ha Hr. rewrite p_many1_try, try_many1_app by assumption. reflexivity. Qed.
Lemma try_many1_none p c r : p c = false -> try_many1 p (c :: r) = None.
Proof. intros H; unfold try_many1; cbn [span]; rewrite H; reflexivity. Qed.

(* str.lower moves the two upper-case ranges of latin-1 up by 32 and leaves the rest alone *)
Lemma py_lower_cases c :
  (65 <= c <= 90 \/ 192 <= c <= 222 /\ c <> 215) /\ py_lower c = c + 32
  \/ ~ (65 <= c <= 90 \/ 192 <= c <= 222 /\ c <> 215) /\ py_lower c = c.
Proof.
  unfold py_lower, is_upper, in_range.
  destruct ((65 <=? c) && (c <=? 90)) eqn:U; [lia|]. destruct ((192 <=? c) && (c <=? 222) && negb (c =? 215)) eqn:L; lia.
Qed.

Lemma py_lower_kw_letter b c : py_lower (if b && is_lower c then c - 32 else c) = py_lower c.
Proof.
  destruct (b && is_lower c) eqn:E; [|reflexivity].
  pose proof (py_lower_cases c). pose proof (py_lower_cases (c - 32)). autounfold with chars in E. lia.
Qed.

Lemma py_lower_idem c : py_lower (py_lower c) = py_lower c.
Proof. pose proof (py_lower_cases c). pose proof (py_lower_cases (py_lower c)). lia. Qed.

Lemma match_ci_case f i k r : match_ci k (kw_case_from f i k ++ r) = Some r.
Proof.
  revert i; induction k as [|c k IH]; intros i; cbn [kw_case_from app match_ci]; [reflexivity|].
  rewrite py_lower_kw_letter, Z.eqb_refl. apply IH.
Qed.

Lemma match_ci_case_none f k : forall i k2 r,
  match_ci k (k2 ++ r) = None -> match_ci k (kw_case_from f i k2 ++ r) = None.
Proof.
  induction k as [|c k IH]; intros i k2 r; [discriminate|].
  destruct k2 as [|c2 k2]; cbn [kw_case_from app]; [auto|].
  cbn [match_ci]. rewrite py_lower_kw_letter. destruct (py_lower c2 =? py_lower c); [apply IH|reflexivity].
Qed.

Lemma match_ci_len k : forall s r, match_ci k s = Some r -> List.length s = (List.length k + List.length r)%nat.
Proof.
  induction k as [|c k IH]; intros s r H; cbn [match_ci] in H; [inversion H; reflexivity|].
  destruct s as [|x s]; [discriminate|]. destruct (py_lower x =? py_lower c); [|discriminate].
  apply IH in H. cbn [List.length]. lia.
Qed.

Lemma match_ci_case_some f k : forall i k2 r r', List.length k = List.length k2 ->
  match_ci k (k2 ++ r) = Some r' -> match_ci k (kw_case_from f i k2 ++ r) = Some r'.
Proof.
  induction k as [|c k IH]; intros i [|c2 k2] r r' L; try discriminate L; [auto|].
  cbn [kw_case_from app match_ci]. rewrite py_lower_kw_letter. destruct (py_lower c2 =? py_lower c); [|discriminate].
  apply IH. injection L as L. exact L.
Qed.

Lemma kw_case_lower_s f i k : lower_s (kw_case_from f i k) = lower_s k.
Proof.
  revert i; induction k as [|c k IH]; intros i; cbn [kw_case_from lower_s map]; [reflexivity|].
  rewrite py_lower_kw_letter. f_equal. apply IH.
Qed.

Lemma kw_case_class (p : Z -> bool) f i k :
  (forall c, is_lower c = true -> p c = true -> p (c - 32) = true) ->
  forallb p k = true -> forallb p (kw_case_from f i k) = true.
Proof.
  intros Hp; revert i; induction k as [|c k IH]; intros i Hk; cbn [kw_case_from forallb] in *; [reflexivity|].
  apply andb_true_iff in Hk; destruct Hk as [Hc Hk]. rewrite (IH _ Hk), andb_true_r.
  destruct (f i); cbn [andb]; [|exact Hc]. destruct (is_lower c) eqn:E; [apply Hp; assumption|exact Hc].
Qed.
Lemma kw_case_length f i k : List.length (kw_case_from f i k) = List.length k.
Proof. revert i; induction k as [|c k IH]; intros i; cbn [kw_case_from List.length]; [reflexivity|]. rewrite IH. reflexivity. Qed.
Lemma kw_case_nonempty f i k : k <> [] -> kw_case_from f i k <> [].
Proof. destruct k; [contradiction|cbn; discriminate]. Qed.

Lemma upper_atom c : is_lower c = true -> atom_char c = true -> atom_char (c - 32) = true.
Proof. autounfold with chars. lia. Qed.
Lemma upper_alpha c : is_lower c = true -> search_char c = true -> search_char (c - 32) = true.
Proof. autounfold with chars. lia. Qed.
Lemma upper_fetch c : is_lower c = true -> fetch_att_char c = true -> fetch_att_char (c - 32) = true.
Proof. autounfold with chars. lia. Qed.

Definition lowered (k : list Z) : Prop := lower_s k = k.

Lemma p_lit_kw ch site k r : p_lit (bs k) (kw ch site k ++ r) = ROk tt r.
Proof. unfold p_lit, kw. rewrite match_ci_case. reflexivity. Qed.
Lemma try_lit_kw ch site k r : try_lit (bs k) (kw ch site k ++ r) = Some r.
Proof. unfold try_lit, kw. apply match_ci_case. Qed.
Lemma peek_lit_kw ch site k r : peek_lit (bs k) (kw ch site k ++ r) = true.
Proof. unfold peek_lit, kw. rewrite match_ci_case. reflexivity. Qed.

Lemma p_sp_cons r : p_sp (32 :: r) = ROk tt r.
Proof. reflexivity. Qed.
Lemma p_lit_char c r : py_lower c = c -> p_lit [c] (c :: r) = ROk tt r.
Proof. intros H. unfold p_lit; cbn [match_ci]. rewrite Z.eqb_refl. reflexivity. Qed.

Lemma match_ci1_ne k c r : (k < 65 \/ 90 < k < 97) -> c <> k -> match_ci [k] (c :: r) = None.
Proof.
  intros Hk Hne. cbn [match_ci]. pose proof (py_lower_cases c). pose proof (py_lower_cases k).
  destruct (Z.eqb_spec (py_lower c) (py_lower k)); [lia|reflexivity].
Qed.

Definition dv (z : Z) (ds : list Z) : Z := fold_left (fun a d => a * 10 + digit_val d) ds z.
Lemma digits_val_dv ds : digits_val ds = dv 0 ds.
Proof. reflexivity. Qed.

Lemma digits_fuel_dv fuel : forall n acc, 0 <= n < 2 ^ Z.of_nat fuel -> dv 0 (digits_fuel fuel n acc) = dv n acc.
Proof.
  induction fuel as [|f IH]; intros n acc Hn.
  - cbn [digits_fuel]. replace n with 0 by (cbn in Hn; lia). reflexivity.
  - cbn [digits_fuel]. destruct (Z.ltb_spec n 10) as [Hlt|Hge].
    + unfold dv; cbn [fold_left]. unfold digit_val. f_equal. lia.
    + rewrite IH.
      * unfold dv; cbn [fold_left]. unfold digit_val. f_equal. div_lia.
      * rewrite Nat2Z.inj_succ, Z.pow_succ_r in Hn by lia. div_lia.
Qed.

Lemma digit_48 k : 0 <= k <= 9 -> is_digit (48 + k) = true.
Proof. autounfold with chars. lia. Qed.

Lemma digits_fuel_app fuel : forall n acc, exists pre, digits_fuel fuel n acc = pre ++ acc /\
  (0 <= n -> forallb is_digit pre = true) /\ (fuel <> O -> pre <> []).
Proof.
  induction fuel as [|f IH]; intros n acc.
  - exists []. cbn. repeat split; auto.
  - cbn [digits_fuel]. destruct (Z.ltb_spec n 10) as [Hlt|Hge].
    + exists [48 + n]. repeat split; [|discriminate]. intros Hn. cbn [forallb]. rewrite digit_48 by lia. reflexivity.
    + destruct (IH (n / 10) ((48 + n mod 10) :: acc)) as [pre [E [Hd Hne]]].
      exists (pre ++ [48 + n mod 10]). rewrite E, <- app_assoc. cbn [app]. repeat split.
      * intros Hn. rewrite forallb_app, Hd by div_lia. cbn [forallb].
        rewrite digit_48 by div_lia. reflexivity.
      * intros _ H. apply app_eq_nil in H. destruct H; discriminate.
Qed.

Lemma r_number_digits n : 0 <= n -> forallb is_digit (r_number n) = true.
Proof.
  intros Hn. unfold r_number. destruct (digits_fuel_app (S (Z.to_nat (Z.log2 n))) n []) as [pre [E [Hd _]]].
  rewrite E, app_nil_r. auto.
Qed.
Lemma r_number_nonempty n : r_number n <> [].
Proof.
  unfold r_number. destruct (digits_fuel_app (S (Z.to_nat (Z.log2 n))) n []) as [pre [E [_ Hne]]].
  rewrite E, app_nil_r. apply Hne. discriminate.
Qed.
Lemma r_number_val n : 0 <= n -> digits_val (r_number n) = n.
Proof.
  intros Hn. rewrite digits_val_dv. unfold r_number. rewrite digits_fuel_dv; [reflexivity|].
  split; [lia|]. rewrite Nat2Z.inj_succ, Z2Nat.id by apply Z.log2_nonneg.
  destruct (Z.eq_dec n 0) as [->|Hz]; [cbn; lia|].
  apply Z.log2_spec. lia.
Qed.

Lemma num_ok_inv n : num_ok n = true -> 0 <= n /\ int_ok (r_number n) = true.
Proof. unfold num_ok. lia. Qed.

Lemma p_int_number n r : num_ok n = true -> p_int (r_number n) r = ROk n r.
Proof.
  intros H. destruct (num_ok_inv n H) as [Hn Hi]. unfold p_int. rewrite Hi, r_number_val by exact Hn. reflexivity.
Qed.

Lemma p_number_app n r : num_ok n = true -> ends is_digit r -> p_number (r_number n ++ r) = ROk n r.
Proof.
  intros Hn Hr. unfold p_number, pbind.
  rewrite p_many1_app; [apply p_int_number; exact Hn|apply r_number_nonempty| |exact Hr].
  apply r_number_digits. apply (num_ok_inv n Hn).
Qed.

Lemma digits_not_star x : forallb is_digit x = true -> beq x [42] = false.
Proof. destruct x as [|c x]; [reflexivity|]. intros H. cbn [forallb beq] in *. autounfold with chars in H. lia. Qed.

Lemma two_r_two n : 0 <= n <= 99 -> two (48 + n / 10) (48 + n mod 10) = n.
Proof. intros H. unfold two, digit_val. div_lia. Qed.
Lemma four_r_four n : 0 <= n <= 9999 ->
  four (48 + n / 1000) (48 + (n / 100) mod 10) (48 + (n / 10) mod 10) (48 + n mod 10) = n.
Proof. intros H. unfold four, digit_val. div_lia. Qed.

Lemma scan_quoted_body_app v r : quotable v = true -> scan_quoted_body (quote_body v ++ 34 :: r) = Some (v, r).
Proof.
  induction v as [|c v IH]; intros Hq; cbn [quote_body app scan_quoted_body quotable forallb] in *.
  - reflexivity.
  - apply andb_true_iff in Hq; destruct Hq as [Hc Hq]. specialize (IH Hq).
    destruct ((c =? 34) || (c =? 92)) eqn:E.
    + cbn [app scan_quoted_body]. rewrite E, IH. reflexivity.
    + cbn [app scan_quoted_body]. apply orb_false_iff in E; destruct E as [E1 E2].
      apply negb_true_iff in Hc. rewrite E1, E2, Hc, IH. reflexivity.
Qed.

Lemma scan_quoted_app v r : quotable v = true -> scan_quoted (r_quoted v ++ r) = Some (v, r).
Proof.
  intros Hq. unfold r_quoted, scan_quoted. cbn [app]. rewrite <- app_assoc. cbn [app].
  apply scan_quoted_body_app. exact Hq.
Qed.

Lemma scan_quoted_other c r : c <> 34 -> scan_quoted (c :: r) = None.
Proof. intros H. unfold scan_quoted. destruct (Z.eqb_spec c 34); [contradiction|reflexivity]. Qed.

Lemma scan_lit_ref_app plus v r :
  scan_lit_ref (r_literal plus v ++ r) = Some (r_number (Z.of_nat (List.length v)), v ++ r).
Proof.
  unfold r_literal, scan_lit_ref. cbn [app]. rewrite <- !app_assoc.
  set (ds := r_number (Z.of_nat (List.length v))).
  assert (Hd : forallb is_digit ds = true) by (apply r_number_digits; lia).
  assert (Hne : ds <> []) by apply r_number_nonempty.
  destruct plus; cbn [app]; (rewrite span_app; [|exact Hd|reflexivity]); (destruct ds; [contradiction|reflexivity]).
Qed.

Lemma scan_quoted_literal plus v r : scan_quoted (r_literal plus v ++ r) = None.
Proof. reflexivity. Qed.

Lemma p_string_literal plus v r : str_ok v = true -> p_string (r_literal plus v ++ r) = ROk v r.
Proof.
  intros Hv. unfold p_string.
  rewrite scan_quoted_literal.
  rewrite scan_lit_ref_app. rewrite p_int_number by exact Hv.
  rewrite app_length, Nat2Z.inj_add.
  replace (Z.of_nat (List.length v) + Z.of_nat (List.length r) <? Z.of_nat (List.length v)) with false
    by (symmetry; apply Z.ltb_ge; lia).
  rewrite Nat2Z.id, firstn_len_app, skipn_len_app. reflexivity.
Qed.

Lemma p_string_quoted v r : quotable v = true -> p_string (r_quoted v ++ r) = ROk v r.
Proof. intros Hq. unfold p_string. rewrite scan_quoted_app by exact Hq. reflexivity. Qed.

Lemma p_string_app form v r : str_ok v = true -> p_string (r_string form v ++ r) = ROk v r.
Proof.
  intros Hv. unfold r_string.
  destruct form as [|[|[|[|n]]]]; try (apply p_string_literal; exact Hv);
    (destruct (quotable v) eqn:Q; [apply p_string_quoted; exact Q|apply p_string_literal; exact Hv]).
Qed.

Definition head_in (p : Z -> bool) (s : list Z) : Prop := match s with c :: _ => p c = true | [] => False end.
Lemma head_in_app p s r : head_in p s -> head_in p (s ++ r).
Proof. destruct s; cbn; [intros []|auto]. Qed.
Lemma head_in_impl (p q : Z -> bool) s : (forall c, p c = true -> q c = true) -> head_in p s -> head_in q s.
Proof. destruct s; cbn; auto. Qed.
Lemma match_ci1_head (p : Z -> bool) k s r : (k < 65 \/ 90 < k < 97) -> p k = false -> head_in p s ->
  match_ci [k] (s ++ r) = None.
Proof.
  intros Hk Hp Hs. destruct s as [|c s]; [contradiction|]. cbn [app]. apply match_ci1_ne; [exact Hk|].
  intros ->. cbn in Hs. congruence.
Qed.

Definition str_head (c : Z) : bool := (c =? 34) || (c =? 123).
Lemma str_head_iff c : str_head c = true <-> c = 34 \/ c = 123.
Proof. unfold str_head. lia. Qed.
Lemma r_string_head_in form v : head_in str_head (r_string form v).
Proof. unfold r_string. destruct form as [|[|[|[|n]]]]; try (destruct (quotable v)); reflexivity. Qed.

Lemma try_many1_string (p : Z -> bool) form v r : (p 34 || p 123) = false -> try_many1 p (r_string form v ++ r) = None.
Proof.
  intros Hp. apply orb_false_iff in Hp. pose proof (r_string_head_in form v) as H.
  destruct (r_string form v) as [|c t]; [contradiction|]. apply try_many1_none.
  apply str_head_iff in H. destruct H as [-> | ->]; apply Hp.
Qed.

(* astring and list-mailbox in one: p_astring and r_astring are these at atom_char, p_list_mailbox and r_list_mailbox
   at list_char *)
Definition tok_or_string (p : Z -> bool) : parser (list Z) :=
  fun s => match try_many1 p s with Some (a, r) => ROk a r | None => p_string s end.
Definition r_tok_or_string (p : Z -> bool) (form : nat) (v : list Z) : list Z :=
  match form with
  | O => if match v with [] => false | _ => forallb p v end then v else r_string 1 v
  | _ => r_string form v
  end.

Lemma tok_or_string_app (p : Z -> bool) form v r :
  (p 34 || p 123) = false -> (p 32 || p 41 || p 13) = false -> str_ok v = true -> stops r = true ->
  tok_or_string p (r_tok_or_string p form v ++ r) = ROk v r.
Proof.
  intros Hq Hp Hv Hr.
  assert (S : forall f, tok_or_string p (r_string f v ++ r) = ROk v r).
  { intros f. unfold tok_or_string. rewrite try_many1_string by exact Hq. apply p_string_app. exact Hv. }
  unfold r_tok_or_string. destruct form as [|n]; [|apply S]. destruct v as [|c v]; [apply S|].
  destruct (forallb p (c :: v)) eqn:A; [|apply S].
  unfold tok_or_string. rewrite try_many1_app; [reflexivity|discriminate|exact A|apply stops_ends; assumption].
Qed.

Lemma r_tok_or_string_head_in (p : Z -> bool) form v : head_in (fun c => p c || str_head c) (r_tok_or_string p form v).
Proof.
  assert (S : forall f, head_in (fun c => p c || str_head c) (r_string f v)).
  { intros f. eapply head_in_impl; [|apply r_string_head_in]. intros c H. rewrite H. apply orb_true_r. }
  unfold r_tok_or_string. destruct form as [|n]; [|apply S]. destruct v as [|c v]; [apply S|].
  destruct (forallb p (c :: v)) eqn:A; [|apply S].
  cbn [forallb] in A. apply andb_true_iff in A. destruct A as [A _]. cbn [head_in]. rewrite A. reflexivity.
Qed.

Lemma p_astring_app form v r : str_ok v = true -> stops r = true -> p_astring (r_astring form v ++ r) = ROk v r.
Proof. exact (tok_or_string_app atom_char form v r eq_refl eq_refl). Qed.
Lemma p_list_mailbox_app form v r : str_ok v = true -> stops r = true ->
  p_list_mailbox (r_list_mailbox form v ++ r) = ROk v r.
Proof. exact (tok_or_string_app list_char form v r eq_refl eq_refl). Qed.

Lemma p_atom_app v r : is_atom v = true -> stops r = true -> p_atom (v ++ r) = ROk v r.
Proof.
  intros A Hr. unfold p_atom, is_atom in *. destruct v as [|c v]; [discriminate|].
  apply p_many1_app; [discriminate|exact A|apply stops_ends; [reflexivity|exact Hr]].
Qed.

Lemma inbox_case_norm f : mailbox_norm (kw_case_from f 0 (bs "inbox")) = inbox.
Proof.
  cbn [bs kw_case_from]. destruct (f 0%nat), (f 1%nat), (f 2%nat), (f 3%nat), (f 4%nat); vm_compute; reflexivity.
Qed.
Lemma inbox_case_pattern f : pattern_norm (kw_case_from f 0 (bs "inbox")) = inbox.
Proof. unfold pattern_norm. rewrite kw_case_lower_s. reflexivity. Qed.
Lemma inbox_case_str_ok f : str_ok (kw_case_from f 0 (bs "inbox")) = true.
Proof. unfold str_ok. rewrite kw_case_length. reflexivity. Qed.

Lemma p_mailbox_app ch site m r : mailbox_ok m = true -> stops r = true ->
  p_mailbox (r_mailbox ch site m ++ r) = ROk m r.
Proof.
  intros Hm Hr. unfold mailbox_ok in Hm. apply andb_true_iff in Hm; destruct Hm as [Hn Hs].
  unfold p_mailbox, pmap, pbind, r_mailbox. destruct (beq m inbox) eqn:E.
  - apply beq_eq in E; subst m. unfold kw.
    rewrite p_astring_app; [|apply inbox_case_str_ok|exact Hr]. unfold pret. rewrite inbox_case_norm. reflexivity.
  - rewrite p_astring_app by assumption. unfold pret. apply beq_eq in Hn. rewrite Hn. reflexivity.
Qed.

Lemma p_mailbox_inbox ch site r : stops r = true -> p_mailbox (r_mailbox ch site inbox ++ r) = ROk inbox r.
Proof. intros Hr. apply p_mailbox_app; [reflexivity|exact Hr]. Qed.

Lemma p_pattern_app ch site p r : pattern_ok p = true -> stops r = true ->
  p_list_mailbox_pattern (r_pattern ch site p ++ r) = ROk p r.
Proof.
  intros Hm Hr. unfold pattern_ok in Hm. apply andb_true_iff in Hm; destruct Hm as [Hn Hs].
  unfold p_list_mailbox_pattern, pmap, pbind, r_pattern. destruct (beq p inbox) eqn:E.
  - apply beq_eq in E; subst p. unfold kw.
    rewrite p_list_mailbox_app; [|apply inbox_case_str_ok|exact Hr]. unfold pret. rewrite inbox_case_pattern. reflexivity.
  - rewrite p_list_mailbox_app by assumption. unfold pret. apply beq_eq in Hn. rewrite Hn. reflexivity.
Qed.

(* the letters as numbers: comparing with them does not go through the unary nat_of_ascii of bs *)
Lemma inbox_val : inbox = [105; 110; 98; 111; 120].
Proof. reflexivity. Qed.

Lemma mailbox_norm_inbox_only x :
  mailbox_norm x = inbox -> lower_s (match x with [] => [] | _ => normpath x end) = inbox.
Proof.
  unfold mailbox_norm. set (y := match x with [] => [] | _ => normpath x end).
  destruct (beq (lower_s y) inbox) eqn:E; [intros _; apply beq_eq; exact E|].
  intros H. rewrite H, inbox_val in E. discriminate E.
Qed.

Lemma p_flag_app f r : flag_ok f = true -> stops r = true -> p_flag (f ++ r) = ROk f r.
Proof.
  intros Hf Hr. unfold flag_ok in Hf. destruct f as [|c a]; [discriminate|].
  unfold p_flag. destruct (Z.eqb_spec c 92) as [->|Hne].
  - cbn [app]. change (try_lit [92] (92 :: a ++ r)) with (Some (a ++ r)).
    unfold pmap, pbind. rewrite p_atom_app by assumption. reflexivity.
  - assert (A : atom_char c = true) by (cbn [is_atom forallb] in Hf; apply andb_true_iff in Hf; apply Hf).
    cbn [app]. unfold try_lit. rewrite match_ci1_ne; [|lia|exact Hne].
    change (c :: a ++ r) with ((c :: a) ++ r). apply p_atom_app; assumption.
Qed.

Lemma split_on_none c a : forallb (fun x => negb (x =? c)) a = true -> split_on c a = [a].
Proof.
  induction a as [|x a IH]; cbn [split_on forallb]; [reflexivity|]. intros H.
  apply andb_true_iff in H; destruct H as [Hx Ha]. apply negb_true_iff in Hx. rewrite Hx, (IH Ha). reflexivity.
Qed.
Lemma split_on_app c a b : forallb (fun x => negb (x =? c)) a = true ->
  split_on c (a ++ c :: b) = a :: split_on c b.
Proof.
  induction a as [|x a IH]; cbn [split_on forallb app]; intros H.
  - rewrite Z.eqb_refl. reflexivity.
  - apply andb_true_iff in H; destruct H as [Hx Ha]. apply negb_true_iff in Hx. rewrite Hx, (IH Ha). reflexivity.
Qed.

Lemma digit_props c : is_digit c = true -> msgset_char c = true /\ negb (c =? 44) = true /\ negb (c =? 58) = true.
Proof. autounfold with chars. lia. Qed.

Lemma r_satom_chars a : satom_ok a = true ->
  forallb msgset_char (r_satom a) = true /\ forallb (fun x => negb (x =? 44)) (r_satom a) = true
  /\ forallb (fun x => negb (x =? 58)) (r_satom a) = true /\ r_satom a <> [].
Proof.
  destruct a as [|n]; cbn [r_satom satom_ok]; intros H.
  - repeat split; try reflexivity. discriminate.
  - assert (Hd : forallb is_digit (r_number n) = true) by (apply r_number_digits; apply (num_ok_inv n H)).
    repeat split; try (eapply forallb_impl; [|exact Hd]; intros x Hx; apply digit_props in Hx; tauto).
    apply r_number_nonempty.
Qed.

Lemma seq_atom_ok_r a : satom_ok a = true -> seq_atom_ok (r_satom a) = true.
Proof.
  destruct a as [|n]; cbn [r_satom satom_ok]; intros H; [reflexivity|].
  unfold seq_atom_ok. pose proof (r_number_nonempty n) as Hne. destruct (r_number n) eqn:E; [contradiction|].
  rewrite <- E. rewrite r_number_digits by apply (num_ok_inv n H). reflexivity.
Qed.
Lemma seq_atom_val_r a : satom_ok a = true -> seq_atom_val (r_satom a) = ROk a [].
Proof.
  destruct a as [|n]; cbn [r_satom satom_ok]; intros H; [reflexivity|].
  unfold seq_atom_val. destruct (num_ok_inv n H) as [Hn Hi].
  rewrite digits_not_star by (apply r_number_digits; exact Hn).
  rewrite Hi, r_number_val by exact Hn. reflexivity.
Qed.

Lemma seq_elt_r e : selt_ok e = true -> seq_elt (r_selt e) = ROk e [].
Proof.
  destruct e as [|n|a b]; cbn [r_selt selt_ok]; intros H.
  - reflexivity.
  - unfold seq_elt. pose proof (seq_atom_ok_r (ANum n) H) as P1. pose proof (seq_atom_val_r (ANum n) H) as P2.
    cbn [r_satom] in P1, P2. rewrite P1, P2. reflexivity.
  - apply andb_true_iff in H; destruct H as [Ha Hb].
    destruct (r_satom_chars a Ha) as [_ [_ [Ha58 Hane]]]. destruct (r_satom_chars b Hb) as [_ [_ [Hb58 _]]].
    unfold seq_elt.
    assert (Hno : seq_atom_ok (r_satom a ++ 58 :: r_satom b) = false).
    { unfold seq_atom_ok. destruct (r_satom a ++ 58 :: r_satom b) eqn:E.
      - apply app_eq_nil in E. destruct E; discriminate.
      - rewrite <- E. rewrite forallb_app. cbn [forallb]. change (is_digit 58) with false.
        rewrite andb_false_r. cbn [orb].
        destruct (r_satom a) as [|x xa] eqn:Ea; [contradiction|]. cbn [app beq].
        destruct xa; cbn [app beq]; rewrite ?andb_false_r; reflexivity. }
    rewrite Hno. rewrite split_on_app by exact Ha58. rewrite split_on_none by exact Hb58.
    rewrite (seq_atom_ok_r a Ha), (seq_atom_ok_r b Hb). cbn [andb].
    rewrite (seq_atom_val_r a Ha), (seq_atom_val_r b Hb). reflexivity.
Qed.

Lemma r_selt_chars e : selt_ok e = true ->
  forallb msgset_char (r_selt e) = true /\ forallb (fun x => negb (x =? 44)) (r_selt e) = true.
Proof.
  destruct e as [|n|a b]; cbn [r_selt selt_ok]; intros H.
  - split; reflexivity.
  - destruct (r_satom_chars (ANum n) H) as [H1 [H2 _]]. cbn [r_satom] in H1, H2. split; assumption.
  - apply andb_true_iff in H; destruct H as [Ha Hb].
    destruct (r_satom_chars a Ha) as [A1 [A2 _]]. destruct (r_satom_chars b Hb) as [B1 [B2 _]].
    rewrite !forallb_app. cbn [forallb]. rewrite A1, A2, B1, B2. split; reflexivity.
Qed.

Lemma r_set_props l : l <> [] -> forallb selt_ok l = true ->
  forallb msgset_char (r_set l) = true /\ split_on 44 (r_set l) = map r_selt l /\ r_set l <> [].
Proof.
  induction l as [|e l IH]; [contradiction|]. intros _ H. cbn [forallb] in H. apply andb_true_iff in H; destruct H as [He Hl].
  destruct (r_selt_chars e He) as [E1 E2].
  destruct l as [|e' l'].
  - cbn [r_set map]. repeat split; [exact E1|apply split_on_none; exact E2|].
    destruct e as [|n|a b]; cbn [r_selt]; try discriminate; [apply r_number_nonempty|].
    intros X. apply app_eq_nil in X. destruct X; discriminate.
  - destruct (IH ltac:(discriminate) Hl) as [I1 [I2 I3]].
    change (r_set (e :: e' :: l')) with (r_selt e ++ 44 :: r_set (e' :: l')).
    repeat split.
    + rewrite forallb_app. cbn [forallb]. rewrite E1, I1. reflexivity.
    + rewrite split_on_app by exact E2. rewrite I2. reflexivity.
    + intros X. apply app_eq_nil in X. destruct X; discriminate.
Qed.

Lemma seq_elts_r l : forallb selt_ok l = true -> seq_elts (map r_selt l) = ROk l [].
Proof.
  induction l as [|e l IH]; cbn [forallb map seq_elts]; [reflexivity|]. intros H.
  apply andb_true_iff in H; destruct H as [He Hl]. rewrite (seq_elt_r e He), (IH Hl). reflexivity.
Qed.

Lemma p_msg_set_app l r : set_ok l = true -> stops r = true -> p_msg_set (r_set l ++ r) = ROk l r.
Proof.
  intros Hl Hr. unfold set_ok in Hl. destruct l as [|e l]; [discriminate|].
  destruct (r_set_props (e :: l) ltac:(discriminate) Hl) as [H1 [H2 H3]].
  unfold p_msg_set. rewrite span_app; [|exact H1|apply stops_ends; [reflexivity|exact Hr]].
  destruct (r_set (e :: l)) eqn:E; [contradiction|]. rewrite H2, seq_elts_r by exact Hl. reflexivity.
Qed.

Lemma scan_month_from_case f name r : forall ms i m,
  scan_month_from i ms (name ++ r) = Some (m, r) -> scan_month_from i ms (kw_case_from f 0 name ++ r) = Some (m, r).
Proof.
  induction ms as [|k ms IH]; intros i m; cbn [scan_month_from]; [discriminate|].
  destruct (match_ci k (name ++ r)) as [r'|] eqn:E.
  - intros [= <- ->]. rewrite (match_ci_case_some f k 0 name r r); [reflexivity| |exact E].
    apply match_ci_len in E. rewrite app_length in E. lia.
  - rewrite match_ci_case_none by exact E. apply IH.
Qed.

Lemma scan_month_kw ch site m r : 1 <= m <= 12 -> scan_month (kw ch site (month_name m) ++ r) = Some (m, r).
Proof.
  intros Hm. unfold scan_month, kw. apply scan_month_from_case.
  assert (C : m = 1 \/ m = 2 \/ m = 3 \/ m = 4 \/ m = 5 \/ m = 6 \/ m = 7 \/ m = 8 \/ m = 9 \/ m = 10 \/ m = 11 \/ m = 12) by lia.
  repeat destruct C as [C|C]; subst m; vm_compute; reflexivity.
Qed.

Lemma digit_tens n : 0 <= n <= 99 -> is_digit (48 + n / 10) = true.
Proof. intros H. apply digit_48. div_lia. Qed.
Lemma digit_units n : 0 <= n -> is_digit (48 + n mod 10) = true.
Proof. intros H. apply digit_48. div_lia. Qed.

Lemma scan_mon_year_app ch site m y r : 1 <= m <= 12 -> 0 <= y <= 9999 ->
  scan_mon_year (45 :: kw ch site (month_name m) ++ 45 :: r_four y ++ r) = Some (m, y, r).
Proof.
  intros Hm Hy. unfold scan_mon_year. change (45 =? 45) with true. cbv iota.
  rewrite scan_month_kw by exact Hm. unfold r_four. cbn [app].
  change (45 =? 45) with true. rewrite !digit_48 by div_lia. cbn [andb]. rewrite four_r_four by exact Hy. reflexivity.
Qed.

Lemma date_ok_range y m d : date_ok y m d = true -> 1 <= y <= 9999 /\ 1 <= d <= 31.
Proof.
  unfold date_ok, days_in_month. intros H.
  destruct (m =? 2); [destruct (is_leap y)|destruct ((m =? 4) || (m =? 6) || (m =? 9) || (m =? 11))]; lia.
Qed.
Lemma date_wf_inv y m d : date_wf (y, m, d) = true -> 1 <= m <= 12 /\ date_ok y m d = true.
Proof. unfold date_wf. lia. Qed.

Lemma scan_date_text_two a b s m y r : is_digit a = true -> is_digit b = true ->
  scan_mon_year s = Some (m, y, r) -> scan_date_text (a :: b :: s) = Some (two a b, m, y, r).
Proof. intros A B M. unfold scan_date_text. rewrite A, B, M. reflexivity. Qed.
(* a single digit: the "-" after it is not a second one *)
Lemma scan_date_text_one a s m y r : is_digit a = true ->
  scan_mon_year (45 :: s) = Some (m, y, r) -> scan_date_text (a :: 45 :: s) = Some (digit_val a, m, y, r).
Proof. intros A M. unfold scan_date_text. rewrite A, M. reflexivity. Qed.

Lemma scan_date_text_app ch site y m d r : date_wf (y, m, d) = true ->
  scan_date_text ((if c_opt ch (site + 1) && (d <? 10) then [48 + d] else r_two d)
                  ++ 45 :: kw ch site (month_name m) ++ 45 :: r_four y ++ r) = Some (d, m, y, r).
Proof.
  intros H. destruct (date_wf_inv _ _ _ H) as [Hm Hok]. destruct (date_ok_range _ _ _ Hok) as [Hy Hd]. clear H Hok.
  assert (M : scan_mon_year (45 :: kw ch site (month_name m) ++ 45 :: r_four y ++ r) = Some (m, y, r))
    by (apply scan_mon_year_app; lia).
  destruct (c_opt ch (site + 1) && (d <? 10)) eqn:E; cbn [r_two app].
  - rewrite (scan_date_text_one _ _ m y r); [|apply digit_48; lia|exact M]. unfold digit_val. do 4 f_equal. lia.
  - rewrite (scan_date_text_two _ _ _ m y r); [|apply digit_tens; lia|apply digit_units; lia|exact M].
    rewrite two_r_two by lia. reflexivity.
Qed.

Lemma p_date_app ch site d r : date_wf d = true -> p_date (r_date ch site d ++ r) = ROk d r.
Proof.
  destruct d as [[y m] dd]. intros H. destruct (date_wf_inv _ _ _ H) as [Hm Hok].
  destruct (date_ok_range _ _ _ Hok) as [Hy Hd].
  unfold p_date, r_date. destruct (c_opt ch site).
  - napp. unfold scan_date. change (34 =? 34) with true. cbv iota.
    rewrite (scan_date_text_app ch site y m dd (34 :: r) H). change (34 =? 34) with true. cbv iota.
    rewrite Hok. reflexivity.
  - napp. pose proof (scan_date_text_app ch site y m dd r H) as P. unfold scan_date.
    destruct (c_opt ch (site + 1) && (dd <? 10)); unfold r_two in *; cbn [app] in *;
      (match goal with |- context [?c =? 34] => replace (c =? 34) with false by div_lia end);
      rewrite P, Hok; reflexivity.
Qed.

Lemma date_time_wf_inv y m d h mi s off : date_time_wf (y, m, d, h, mi, s, off) = true ->
  1 <= m <= 12 /\ date_ok y m d = true /\ 100 <= y /\ 0 <= h <= 23 /\ 0 <= mi <= 59 /\ 0 <= s <= 59
  /\ off mod 60 = 0 /\ Z.abs off < 86400.
Proof. unfold date_time_wf. lia. Qed.

Lemma r_two_digits n : 0 <= n <= 99 -> forallb is_digit (r_two n) = true.
Proof. intros H. unfold r_two. cbn [forallb]. rewrite digit_tens, digit_units by lia. reflexivity. Qed.

Lemma scan_date_time_chars d1 d2 s1 m y h1 h2 m1 m2 x1 x2 sg z1 z2 z3 z4 r :
  scan_mon_year s1 = Some (m, y, 32 :: h1 :: h2 :: 58 :: m1 :: m2 :: 58 :: x1 :: x2 :: 32 :: sg :: z1 :: z2 :: z3 :: z4 :: 34 :: r) ->
  (d1 =? 32) || is_digit d1 = true -> is_digit d2 = true ->
  forallb is_digit [h1; h2; m1; m2; x1; x2; z1; z2; z3; z4] = true -> (sg =? 45) || (sg =? 43) = true ->
  scan_date_time (34 :: d1 :: d2 :: s1)
  = Some (if d1 =? 32 then digit_val d2 else two d1 d2, m, y, two h1 h2, two m1 m2, two x1 x2, sg =? 45, two z1 z2, two z3 z4, r).
Proof.
  intros M D1 D2 Hd Hs. unfold scan_date_time. rewrite M, D1, D2, Hs. cbn [forallb] in Hd.
  repeat (apply andb_true_iff in Hd; destruct Hd as [-> Hd]). reflexivity.
Qed.

Lemma scan_date_time_app ch site (b : bool) d m y h mi s (neg : bool) zh zm r :
  0 <= d <= 99 -> 1 <= m <= 12 -> 0 <= y <= 9999 ->
  0 <= h <= 99 -> 0 <= mi <= 99 -> 0 <= s <= 99 -> 0 <= zh <= 99 -> 0 <= zm <= 99 ->
  scan_date_time ((34 :: (if b && (d <? 10) then [32; 48 + d] else r_two d) ++
                  45 :: kw ch site (month_name m) ++ 45 :: r_four y ++ 32 :: r_two h ++
                  58 :: r_two mi ++ 58 :: r_two s ++ 32 :: (if neg then 45 else 43) :: r_two zh ++ r_two zm ++ [34]) ++ r)
  = Some (d, m, y, h, mi, s, neg, zh, zm, r).
Proof.
  intros Hd Hm Hy Hh Hmi Hs Hzh Hzm.
  assert (D : exists d1 d2, (if b && (d <? 10) then [32; 48 + d] else r_two d) = [d1; d2] /\
    (d1 =? 32) || is_digit d1 = true /\ is_digit d2 = true /\ (if d1 =? 32 then digit_val d2 else two d1 d2) = d).
  { destruct (b && (d <? 10)) eqn:C.
    - exists 32, (48 + d). rewrite digit_48 by lia. repeat split. change (48 + d - 48 = d). lia.
    - exists (48 + d / 10), (48 + d mod 10). pose proof (digit_tens d Hd) as T. rewrite T, digit_units, orb_true_r, two_r_two by lia.
      repeat split. autounfold with chars in T. destruct (Z.eqb_spec (48 + d / 10) 32); [lia|reflexivity]. }
  destruct D as (d1 & d2 & -> & D1 & D2 & <-). cbn [app]. rewrite <- app_assoc. unfold r_two. cbn [app]. etransitivity.
  - apply scan_date_time_chars; [apply scan_mon_year_app; assumption|exact D1|exact D2| |destruct neg; reflexivity].
    change (forallb is_digit (r_two h ++ r_two mi ++ r_two s ++ r_two zh ++ r_two zm) = true).
    rewrite !forallb_app, !r_two_digits by assumption. reflexivity.
  - rewrite !two_r_two by assumption. destruct neg; reflexivity.
Qed.

Lemma zone_fields off : off mod 60 = 0 -> Z.abs off < 86400 ->
  0 <= Z.abs off / 3600 <= 99 /\ 0 <= (Z.abs off / 60) mod 60 <= 99
  /\ Z.abs off / 3600 * 3600 + (Z.abs off / 60) mod 60 * 60 = Z.abs off.
Proof. intros H60 Ha. div_lia. Qed.

Lemma p_date_time_scanned s d m y h mi sec (neg : bool) zh zm r :
  scan_date_time s = Some (d, m, y, h, mi, sec, neg, zh, zm, r) ->
  100 <= y -> date_ok y m d = true -> h <= 23 -> mi <= 59 -> sec <= 59 -> zh * 3600 + zm * 60 < 86400 ->
  p_date_time s = ROk (y, m, d, h, mi, sec, if neg then - (zh * 3600 + zm * 60) else zh * 3600 + zm * 60) r.
Proof.
  intros S Hy Hok Hh Hmi Hs Hz. unfold p_date_time, fix_year. rewrite S. replace (y <? 100) with false by lia.
  apply Z.leb_le in Hh, Hmi, Hs. apply Z.ltb_lt in Hz. rewrite Hok, Hh, Hmi, Hs, Hz. reflexivity.
Qed.

Lemma p_date_time_app ch site t r : date_time_wf t = true -> p_date_time (r_date_time ch site t ++ r) = ROk t r.
Proof.
  destruct t as [[[[[[y m] d] h] mi] s] off]. intros H.
  destruct (date_time_wf_inv _ _ _ _ _ _ _ H) as (Hm & Hok & Hy100 & Hh & Hmi & Hs & Hoff60 & Habs). clear H.
  destruct (date_ok_range _ _ _ Hok) as [Hy Hd].
  destruct (zone_fields off Hoff60 Habs) as (Hzh & Hzm & Hoff).
  unfold r_date_time.
  rewrite (p_date_time_scanned _ d m y h mi s (off <? 0) (Z.abs off / 3600) ((Z.abs off / 60) mod 60) r);
    [|apply scan_date_time_app; lia|lia|exact Hok|lia..].
  rewrite Hoff. do 2 f_equal. destruct (Z.ltb_spec off 0); lia.
Qed.

Lemma sep_by_cons2 {A} (f : A -> list Z) x y l : sep_by f (x :: y :: l) = f x ++ 32 :: sep_by f (y :: l).
Proof. reflexivity. Qed.
Lemma sep_by_head {A} (f : A -> list Z) (P : list Z -> Prop) x l :
  (forall s, P (f x) -> P (f x ++ s)) -> P (f x) -> P (sep_by f (x :: l)).
Proof. intros Happ Hx. destruct l; [exact Hx|]. rewrite sep_by_cons2. apply Happ. exact Hx. Qed.

Section Lists.
Context {A : Type} (q : A -> bool) (elem : parser A) (f : A -> list Z).
Hypothesis Helem : forall x r, q x = true -> stops r = true -> elem (f x ++ r) = ROk x r.

Lemma paren_list_loop_app : forall l rest fuel, l <> [] -> forallb q l = true ->
  Nat.lt (List.length (sep_by f l ++ 41 :: rest)) fuel ->
  paren_list_loop elem fuel (sep_by f l ++ 41 :: rest) = ROk l rest.
Proof.
  induction l as [|x l IH]; intros rest fuel Hne Hall Hlen; [contradiction|].
  destruct fuel as [|fuel]; [lia|]. cbn [forallb] in Hall. apply andb_true_iff in Hall. destruct Hall as [Hx Hl].
  destruct l as [|y l].
  - cbn [sep_by paren_list_loop]. rewrite Helem by (exact Hx || reflexivity). reflexivity.
  - rewrite sep_by_cons2 in *. rewrite <- app_assoc in *. rewrite <- app_comm_cons in *.
    cbn [paren_list_loop]. rewrite Helem by (exact Hx || reflexivity).
    change (try_lit [41] (32 :: sep_by f (y :: l) ++ 41 :: rest)) with (@None (list Z)).
    rewrite p_sp_cons. rewrite IH; [reflexivity|discriminate|exact Hl|].
    rewrite app_length in Hlen. cbn [List.length] in Hlen. lia.
Qed.

Lemma p_paren_list_of_app (h : Z -> bool) l rest :
  h 41 = false -> (forall x, q x = true -> head_in h (f x)) -> forallb q l = true ->
  p_paren_list_of elem (r_paren f l ++ rest) = ROk l rest.
Proof.
  intros H41 Hh Hall. unfold p_paren_list_of, r_paren. rewrite <- app_comm_cons, <- app_assoc. cbn [app].
  change (p_lit [40] (40 :: sep_by f l ++ 41 :: rest)) with (ROk tt (sep_by f l ++ 41 :: rest)).
  destruct l as [|x l]; [reflexivity|].
  unfold try_lit at 1. rewrite (match_ci1_head h 41); [|lia|exact H41|].
  - apply paren_list_loop_app; [discriminate|exact Hall|lia].
  - apply (sep_by_head f (head_in h)); [intros s; apply head_in_app|]. apply Hh. cbn [forallb] in Hall. apply andb_true_iff in Hall. apply Hall.
Qed.

Lemma list_loop_app : forall l rest fuel, l <> [] -> forallb q l = true ->
  stops rest = true -> try_lit sp rest = None ->
  Nat.lt (List.length (sep_by f l ++ rest)) fuel ->
  list_loop elem fuel (sep_by f l ++ rest) = ROk l rest.
Proof.
  induction l as [|x l IH]; intros rest fuel Hne Hall Hs Hn Hlen; [contradiction|].
  destruct fuel as [|fuel]; [lia|]. cbn [forallb] in Hall. apply andb_true_iff in Hall. destruct Hall as [Hx Hl].
  destruct l as [|y l].
  - cbn [sep_by list_loop]. rewrite Helem by assumption. rewrite Hn. reflexivity.
  - rewrite sep_by_cons2 in *. rewrite <- app_assoc in *. rewrite <- app_comm_cons in *.
    cbn [list_loop]. rewrite Helem by (exact Hx || reflexivity).
    change (try_lit sp (32 :: sep_by f (y :: l) ++ rest)) with (Some (sep_by f (y :: l) ++ rest)). cbv iota.
    rewrite IH; [reflexivity|discriminate|exact Hl|exact Hs|exact Hn|].
    rewrite app_length in Hlen. cbn [List.length] in Hlen. lia.
Qed.

Lemma p_list_of_app l rest : l <> [] -> forallb q l = true -> stops rest = true -> try_lit sp rest = None ->
  p_list_of elem (sep_by f l ++ rest) = ROk l rest.
Proof. intros. unfold p_list_of. apply list_loop_app; auto. Qed.
End Lists.

Lemma scan_quoted_body_inv : forall n s b r, (List.length s <= n)%nat ->
  scan_quoted_body s = Some (b, r) -> (List.length b + List.length r < List.length s)%nat.
Proof.
  (* on a bound of the length, not on s: after a backslash the scanner goes on two characters further *)
  induction n as [|n IH]; intros s b r Hn H.
  - destruct s; [discriminate|cbn in Hn; lia].
  - destruct s as [|c s]; [discriminate|]. cbn [scan_quoted_body] in H. cbn [List.length] in Hn.
    destruct (c =? 34); [inversion H; subst; cbn; lia|].
    destruct (c =? 92).
    + destruct s as [|e s]; [discriminate|]. destruct ((e =? 34) || (e =? 92)); [|discriminate].
      destruct (scan_quoted_body s) as [[b' r']|] eqn:E; [|discriminate]. inversion H; subst.
      apply IH in E; [cbn [List.length]; lia|cbn [List.length] in Hn; lia].
    + destruct ((c =? 13) || (c =? 10)); [discriminate|].
      destruct (scan_quoted_body s) as [[b' r']|] eqn:E; [|discriminate]. inversion H; subst.
      apply IH in E; [cbn [List.length]; lia|lia].
Qed.
Lemma scan_quoted_inv s b r : scan_quoted s = Some (b, r) -> (List.length b + List.length r < List.length s)%nat.
Proof.
  unfold scan_quoted. destruct s as [|c s]; [discriminate|]. destruct (c =? 34); [|discriminate].
  intros H. apply (scan_quoted_body_inv (List.length s)) in H; [cbn [List.length]; lia|lia].
Qed.

Lemma digit_val_range c : is_digit c = true -> 0 <= digit_val c <= 9.
Proof. unfold digit_val. autounfold with chars. lia. Qed.
Lemma two_range a b : is_digit a = true -> is_digit b = true -> 0 <= two a b <= 99.
Proof. intros Ha Hb. apply digit_val_range in Ha, Hb. unfold two. lia. Qed.

Lemma scan_month_from_inv ms : forall i s m r, scan_month_from i ms s = Some (m, r) ->
  (List.length r <= List.length s)%nat /\ i <= m < i + Z.of_nat (List.length ms).
Proof.
  induction ms as [|x ms IH]; intros i s m r H; cbn [scan_month_from] in H; [discriminate|].
  destruct (match_ci x s) eqn:E; [inversion H; subst; apply match_ci_len in E; cbn [List.length]; lia|].
  apply IH in H. cbn [List.length]. lia.
Qed.

Lemma scan_mon_year_inv s m y r : scan_mon_year s = Some (m, y, r) ->
  (List.length r <= List.length s)%nat /\ 1 <= m <= 12 /\ 0 <= y <= 9999.
Proof.
  unfold scan_mon_year. destruct s as [|h s1]; [discriminate|]. destruct (h =? 45); [|discriminate].
  destruct (scan_month s1) as [[m' s2]|] eqn:E; [|discriminate]. apply scan_month_from_inv in E. cbn in E.
  destruct s2 as [|h2 [|a [|b [|c [|d s3]]]]]; try discriminate.
  destruct ((h2 =? 45) && is_digit a && is_digit b && is_digit c && is_digit d) eqn:C; [|discriminate].
  intros H. inversion H; subst. clear H. repeat (apply andb_true_iff in C; destruct C as [C ?]).
  repeat match goal with Hd : is_digit _ = true |- _ => apply digit_val_range in Hd end.
  unfold four. cbn [List.length] in *. lia.
Qed.

Lemma scan_date_text_inv s d m y r : scan_date_text s = Some (d, m, y, r) ->
  (List.length r <= List.length s)%nat /\ 1 <= m <= 12.
Proof.
  unfold scan_date_text.
  set (one := match s with
              | a :: s1 => if is_digit a then match scan_mon_year s1 with Some (m0, y0, r0) => Some (digit_val a, m0, y0, r0) | None => None end else None
              | [] => None end).
  assert (Hone : one = Some (d, m, y, r) -> (List.length r <= List.length s)%nat /\ 1 <= m <= 12).
  { unfold one. destruct s as [|a s1]; [discriminate|]. destruct (is_digit a); [|discriminate].
    destruct (scan_mon_year s1) as [[[m0 y0] r0]|] eqn:E; [|discriminate]. apply scan_mon_year_inv in E.
    intros H. inversion H; subst. cbn [List.length]. lia. }
  destruct s as [|a [|b s2]]; try exact Hone.
  destruct (is_digit a && is_digit b); [|exact Hone].
  destruct (scan_mon_year s2) as [[[m0 y0] r0]|] eqn:E; [|exact Hone]. apply scan_mon_year_inv in E.
  intros H. inversion H; subst. cbn [List.length]. lia.
Qed.

Lemma scan_date_inv s d m y r : scan_date s = Some (d, m, y, r) -> (List.length r <= List.length s)%nat /\ 1 <= m <= 12.
Proof.
  unfold scan_date. destruct s as [|q s1]; [discriminate|]. destruct (q =? 34); [|apply scan_date_text_inv].
  destruct (scan_date_text s1) as [[[[d' m'] y'] [|q2 r']]|] eqn:E; try discriminate.
  destruct (q2 =? 34); [|discriminate]. intros H. inversion H; subst. apply scan_date_text_inv in E. cbn [List.length] in *. lia.
Qed.

Lemma scan_date_time_inv s d m y h mi sec neg zh zm r :
  scan_date_time s = Some (d, m, y, h, mi, sec, neg, zh, zm, r) ->
  (List.length r <= List.length s)%nat /\ 1 <= m <= 12 /\ 0 <= y <= 9999
  /\ 0 <= h <= 99 /\ 0 <= mi <= 99 /\ 0 <= sec <= 99 /\ 0 <= zh <= 99 /\ 0 <= zm <= 99.
Proof.
  unfold scan_date_time. destruct s as [|q [|d1 [|d2 s1]]]; try discriminate.
  destruct ((q =? 34) && ((d1 =? 32) || is_digit d1) && is_digit d2); [|discriminate].
  destruct (scan_mon_year s1) as [[[m0 y0] s2]|] eqn:E2; [|discriminate].
  apply scan_mon_year_inv in E2. destruct E2 as (El & Em & Ey).
  (* the sixteen case distinctions carry the goal along: keep it small *)
  set (res := (d, m, y, h, mi, sec, neg, zh, zm, r)). set (G := _ /\ _).
  destruct s2 as [|sp1 [|h1 [|h2 [|c1 [|m1 [|m2 [|c2 [|x1 [|x2 [|sp2 [|sg [|z1 [|z2 [|z3 [|z4 [|q2 r1]]]]]]]]]]]]]]]];
    try discriminate.
  match goal with |- (if ?c then _ else _) = _ -> _ => destruct c eqn:C end; [|discriminate].
  intros [= <- <- <- <- <- <- <- <- <- <-]. repeat (apply andb_true_iff in C; destruct C as [C ?]).
  subst G. split; [cbn [List.length] in *; clear - El; lia|].
  repeat (apply conj; [exact Em || exact Ey || (apply two_range; assumption)|]). apply two_range; assumption.
Qed.

Lemma stops_nil : stops [] = true. Proof. reflexivity. Qed.
Lemma stops_crlf : stops [13; 10] = true. Proof. reflexivity. Qed.
Lemma stops_sp r : stops (32 :: r) = true. Proof. reflexivity. Qed.
Lemma stops_rp r : stops (41 :: r) = true. Proof. reflexivity. Qed.
