(* Proofs/PhasesP.v — the two-step model of FETCH/STORE/SEARCH (Model/Phases.v): the invariant [winv] of
   Proofs/MboxInv.v survives every interleaving of arrivals, executions and whole commands, and a non-UID
   FETCH/STORE/SEARCH is never sent an EXPUNGE - whatever happened between its arrival and its execution. *)
From Asimap Require Import Base.Res Spec.SetSem Model.Mbox Model.Phases Proofs.MboxInv Proofs.MboxStep Proofs.MboxOut.
Open Scope Z_scope.

Lemma arrive_cases w s c :
  arrive w s c = (w, [(s, RNo)], false) \/
  exists n b b0 o0, get_box w n = Some b /\ gate b s (p_uid c) true = Some (b0, o0) /\ arrive w s c = (set_box w n b0, o0, true).
Proof.
  unfold arrive. destruct (sel w s) as [n|]; auto. destruct (get_box w n) as [b|] eqn:E; auto.
  destruct (get_client b s) as [cl|]; auto. destruct (match c with PStore _ _ _ _ _ => c_exam cl | _ => false end); auto.
  destruct (gate b s (p_uid c) true) as [[b0 o0]|] eqn:G; auto. right. exists n, b, b0, o0. auto.
Qed.

Theorem arrive_inv w s c : winv w -> winv (fst (fst (arrive w s c))).
Proof.
  intros Hw. destruct (arrive_cases w s c) as [->|(n & b & b0 & o0 & E & G & ->)]; [exact Hw|].
  apply winv_set_box; [exact Hw|]. apply (gate_inv _ _ _ _ _ (Hw _ _ E) G).
Qed.

Theorem execute_inv w s c : winv w -> winv (fst (execute w s c)).
Proof.
  intros Hw. rewrite execute_eq. apply in_mbox_inv; [exact Hw|]. intros n b E. pose proof (Hw _ _ E) as Hb.
  destruct (get_client b s) as [cl|]; [|exact Hw].
  destruct (admitted c w n b) as [[[b1a o1a] sl]|] eqn:A.
  - apply admitted_ok in A as [-> _]. apply resync_inv in Hb.
    destruct (gate _ s (p_uid c) true) as [[b1 o1b]|] eqn:G; [|apply winv_set_box; assumption].
    pose proof (body_inv c w n b1 s (c_exam cl) sl Hw (gate_inv _ _ _ _ _ Hb G) (gate_empties _ _ _ _ _ G)) as H.
    destruct (body c w n b1 s (c_exam cl) sl). exact H.
  - destruct (gate b s (p_uid c) true) as [[b0 o0]|] eqn:G; [|exact Hw].
    apply winv_set_box; [exact Hw|]. apply (gate_inv _ _ _ _ _ Hb G).
Qed.

Theorem ev_step_inv w e : winv w -> winv (fst (ev_step w e)).
Proof.
  intros Hw. destruct e as [o|s c|s c]; cbn [ev_step].
  - apply step_inv; exact Hw.
  - pose proof (arrive_inv w s c Hw) as H. destruct (arrive w s c) as [[w' o] go]. exact H.
  - apply execute_inv; exact Hw.
Qed.

Theorem ev_run_inv es : forall w, winv w -> winv (fst (ev_run w es)).
Proof. intros w Hw. apply (fold_inv winv); [|exact Hw]. intros w1 outs e Hw1. rewrite let_pair. apply ev_step_inv, Hw1. Qed.
Theorem ev_reachable_inv a b c es : winv (fst (ev_run (init_world a b c) es)).
Proof. apply ev_run_inv. apply init_inv. Qed.

Theorem arrive_clean w s c : p_uid c = false -> clean_for s (snd (fst (arrive w s c))).
Proof.
  intros Hu. destruct (arrive_cases w s c) as [->|(n & b & b0 & o0 & _ & G & ->)]; [apply none_one; reflexivity|].
  rewrite Hu in G. apply (gate_seq_clean _ _ _ _ _ G).
Qed.

(* the two gates keep the queued EXPUNGEs back; neither the admission nor a body produces one for the issuer.  No
   invariant is needed: this holds in any world *)
Theorem execute_clean w s c : p_uid c = false -> clean_for s (snd (execute w s c)).
Proof.
  intros Hu. rewrite execute_eq, Hu. apply in_mbox_clean. intros n b.
  destruct (get_client b s) as [cl|]; [|apply none_one; reflexivity].
  destruct (admitted c w n b) as [[[b1a o1a] sl]|] eqn:A.
  - apply admitted_ok in A as [_ ->]. pose proof (resync_clean b s) as C1.
    destruct (gate b1a s false true) as [[b1 o1b]|] eqn:G; [|apply none_app; [exact C1|apply none_one; reflexivity]].
    pose proof (body_clean c w n b1 s (c_exam cl) sl (gate_empties _ _ _ _ _ G)) as C.
    destruct (body c w n b1 s (c_exam cl) sl). repeat apply none_app; [exact C1|apply (gate_seq_clean _ _ _ _ _ G)|exact C].
  - destruct (gate b s false true) as [[b0 o0]|] eqn:G; [|apply none_one; reflexivity].
    apply none_app; [apply (gate_seq_clean _ _ _ _ _ G)|apply none_one; reflexivity].
Qed.

Theorem no_expunge_in_any_interleaving a b c es s cmd :
  p_uid cmd = false ->
  let w := fst (ev_run (init_world a b c) es) in
  clean_for s (snd (ev_step w (EArrive s cmd))) /\ clean_for s (snd (ev_step w (EExecute s cmd))).
Proof.
  intros Hu w. split.
  - cbn [ev_step]. pose proof (arrive_clean w s cmd Hu) as H. destruct (arrive w s cmd) as [[w' o] go]. exact H.
  - cbn [ev_step]. apply execute_clean, Hu.
Qed.

(* the executing command's numbers are resolved against the list its client has been told about *)
Theorem execute_synced b s u b1 o1 :
  boxinv b -> gate (fst (resync b)) s u true = Some (b1, o1) -> all_s (fun c => c_view c = uids b1) b1 s.
Proof.
  intros Hb G. apply gate_flush in G as [-> _]. intros c Hin.
  exact (proj2 (synced_after_flush (fst (resync b)) s (resync_inv b Hb) c Hin)).
Qed.

(* the history that made the second gate necessary, on the model.  A and B have INBOX (3 messages) selected; A's
   non-UID `FETCH 2 (FLAGS)` arrives; before it is let through B marks message 2 \Deleted and expunges it. *)
Definition ex_setup : list op :=
  [OAppend 1 "inbox" [] 0 1; OAppend 1 "inbox" [] 0 2; OAppend 1 "inbox" [] 0 3; OSelect 1 "inbox" false; OSelect 2 "inbox" false].
Definition ex_cmd : pcmd := PFetch false [ENum 2] FFlags.
Definition ex_world : world :=
  let w1 := fst (run (init_world 1000 4 5) ex_setup) in
  let w2 := fst (fst (arrive w1 1 ex_cmd)) in
  fst (run w2 [OStore 2 false [ENum 2] Add true ["\Deleted"%string]; OExpunge 2 None]).
Definition views (w : world) : list (Z * bool * list Z) :=
  match get_box w "inbox" with Some b => map (fun p => (fst p, c_ok (snd p), c_view (snd p))) (b_clients b) | None => [] end.

(* with the gate repeated after admission the command is refused and A's view stays legal *)
Example gated_refuses :
  snd (execute ex_world 1 ex_cmd) = [(1, RNo)] /\ views (fst (execute ex_world 1 ex_cmd)) = [(1, true, [1; 2; 3]); (2, true, [1; 3])].
Proof. vm_compute. split; reflexivity. Qed.

(* without it (asimap before its commit 1902352, "check the notification queue again once a command has waited for
   its turn") A is sent "* 2 FETCH" for the message with UID 3 while position 2 of the list
   it knows is UID 2, and an EXPUNGE in the middle of its non-UID FETCH: its replayed view is no longer legal *)
Example ungated_desynchronises :
  exists r g, In (1, RFetch 2 r None g) (snd (execute_gen false ex_world 1 ex_cmd)) /\ g = 3 /\
              In (1, RExpunge 2) (snd (execute_gen false ex_world 1 ex_cmd)) /\
              existsb (fun v => negb (snd (fst v))) (views (fst (execute_gen false ex_world 1 ex_cmd))) = true.
Proof. exists ["unseen"%string; "\Recent"%string], 3. vm_compute. repeat split; auto. Qed.
