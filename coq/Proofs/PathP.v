(* Proofs/PathP.v — C09: Model/Path.v (normpath, join, the validator, the paths commands derive)
   against Spec/Inside.v (lexical confinement), for arbitrary strings.

   The loop of normpath keeps a stack of normal components on top of ".."s (np_fold_spec); hence every
   normal form is some slashes, then ".."s, then normal components (normpath_form), and normpath leaves
   such a string alone (normpath_fix).  What the validator returns is `Clean`: "" or normal components
   only; a clean name joined to the root is inside it (clean_inside), and every path of a command and
   every row of the mailbox table is made of clean names. *)
From Asimap Require Import Base.Res Model.Path Spec.Inside.
Open Scope Z_scope.

Lemma str_eqb_eq a b : str_eqb a b = true <-> a = b.
Proof.
  revert b; induction a as [|x a IH]; intros [|y b]; cbn [str_eqb]; try (split; congruence).
  rewrite andb_true_iff, Z.eqb_eq, IH; split; [intros [-> ->]; reflexivity|intros [= -> ->]; auto].
Qed.

Lemma str_eqb_refl a : str_eqb a a = true.
Proof. apply str_eqb_eq; reflexivity. Qed.

Lemma startswith_cons x s y p : startswith (x :: s) (y :: p) = (x =? y) && startswith s p.
Proof. reflexivity. Qed.

Lemma startswith_app p : forall s, startswith s p = true -> exists r, s = p ++ r.
Proof.
  induction p as [|x p IH]; intros s H; [exists s; reflexivity|].
  destruct s as [|y s]; [discriminate H|]; rewrite startswith_cons in H.
  apply andb_true_iff in H as [->%Z.eqb_eq (r & ->)%IH]; exists r; reflexivity.
Qed.

Lemma strip1_rel s : startswith s [SLASH] = false -> strip1 s = s.
Proof.
  destruct s as [|x s]; [reflexivity|]; cbn [startswith strip1]; intros H.
  rewrite andb_true_r in H; rewrite H; reflexivity.
Qed.

Lemma or_dot_id p : p <> [] -> or_dot p = p.
Proof. destruct p; [contradiction|reflexivity]. Qed.

Lemma or_dot_nonnil p : or_dot p <> [].
Proof. destruct p; discriminate. Qed.

Lemma or_dot_length q : List.length (or_dot q) = Nat.max 1 (List.length q).
Proof. destruct q; [reflexivity|cbn [or_dot List.length]; lia]. Qed.

(* normpath skips a component when it is empty or ".", treats ".." specially, and keeps every other
   one: those are the Normal ones *)
Definition Noslash (c : str) : Prop := Forall (fun x => x <> SLASH) c.
Definition Normal (c : str) : Prop :=
  c_empty c = false /\ c_dot c = false /\ c_dotdot c = false /\ Noslash c.
(* what Normal components and ".." have in common, and all that join and `escapes` ask of a component *)
Definition Comp (c : str) : Prop := c <> [] /\ Noslash c.

Lemma comp_cases c : Noslash c -> (c_empty c || c_dot c = true) \/ c = s_dotdot \/ Normal c.
Proof.
  intros Hn. destruct (c_empty c) eqn:E1; [left; reflexivity|]. destruct (c_dot c) eqn:E2; [left; reflexivity|].
  destruct (c_dotdot c) eqn:E3; [right; left; apply str_eqb_eq, E3|right; right; repeat split; assumption].
Qed.

Lemma dotdot_not_normal : ~ Normal s_dotdot.
Proof. intros (_ & _ & H & _); discriminate H. Qed.

Lemma dotdot_comp : Comp s_dotdot.
Proof. split; [|repeat constructor]; discriminate. Qed.

Lemma normal_comp c : Normal c -> Comp c.
Proof. intros (H & _ & _ & Hn); split; [intros ->; discriminate H|exact Hn]. Qed.

Lemma form_comps k ns : Forall Normal ns -> Forall Comp (repeat s_dotdot k ++ ns).
Proof.
  intros H; apply Forall_app; split; [|revert H; apply Forall_impl, normal_comp].
  apply Forall_forall; intros c Hc; apply repeat_spec in Hc; subst; exact dotdot_comp.
Qed.

Lemma form_noslash k ns : Forall Normal ns -> Forall Noslash (repeat s_dotdot k ++ ns).
Proof. intros H; generalize (form_comps k ns H); apply Forall_impl; intros c Hc; apply Hc. Qed.

Lemma split_nonnil s : split_slash s <> [].
Proof.
  destruct s as [|c r]; cbn [split_slash]; [discriminate|].
  destruct (c =? SLASH); [discriminate|]. destruct (split_slash r); discriminate.
Qed.

Lemma split_cons_slash r : split_slash (SLASH :: r) = [] :: split_slash r.
Proof. reflexivity. Qed.

(* the last component of a meets the first of b *)
Lemma split_app a b :
  split_slash (a ++ b) =
  removelast (split_slash a) ++ (last (split_slash a) [] ++ hd [] (split_slash b)) :: tl (split_slash b).
Proof.
  induction a as [|c a IH]; cbn [app].
  - cbn [split_slash removelast last app]. destruct (split_slash b) eqn:E; [exfalso; exact (split_nonnil b E)|reflexivity].
  - cbn [split_slash]. destruct (c =? SLASH).
    + rewrite IH. destruct (split_slash a) as [|h t] eqn:E; [exfalso; exact (split_nonnil a E)|]. reflexivity.
    + rewrite IH. destruct (split_slash a) as [|h t] eqn:E; [exfalso; exact (split_nonnil a E)|].
      destruct t as [|h1 t]; reflexivity.
Qed.

Lemma split_app_slash a b : split_slash (a ++ SLASH :: b) = split_slash a ++ split_slash b.
Proof.
  rewrite split_app, split_cons_slash; cbn [hd tl]; rewrite app_nil_r.
  symmetry; rewrite (app_removelast_last [] (split_nonnil a)) at 1.
  rewrite <- app_assoc; reflexivity.
Qed.

Lemma split_noslash s : Forall Noslash (split_slash s).
Proof.
  induction s as [|c r IH]; cbn [split_slash]; [repeat constructor|].
  destruct (Z.eqb_spec c SLASH) as [->|Hc]; [constructor; [constructor|exact IH]|].
  destruct IH as [|h t Hh Ht]; repeat constructor; assumption.
Qed.

Lemma split_of_noslash c : Noslash c -> split_slash c = [c].
Proof.
  induction 1 as [|x c Hx _ IH]; cbn [split_slash]; [reflexivity|].
  apply Z.eqb_neq in Hx; rewrite Hx, IH; reflexivity.
Qed.

Lemma join_cons c r :
  join_slash (c :: r) = c ++ match r with [] => [] | _ => SLASH :: join_slash r end.
Proof. destruct r; [symmetry; apply app_nil_r|reflexivity]. Qed.

(* the empty list is the one list of slash-free components that split does not give back: "" splits
   into one empty component *)
Lemma split_join cs : Forall Noslash cs ->
  split_slash (join_slash cs) = match cs with [] => [[]] | _ => cs end.
Proof.
  induction 1 as [|x cs Hx _ IH]; [reflexivity|]. rewrite join_cons.
  destruct cs; [rewrite app_nil_r; apply split_of_noslash, Hx|].
  rewrite split_app_slash, (split_of_noslash _ Hx), IH; reflexivity.
Qed.

Lemma join_split c : join_slash (split_slash c) = c.
Proof.
  induction c as [|x c IH]; [reflexivity|].
  cbn [split_slash]. destruct (x =? SLASH) eqn:Ex.
  - apply Z.eqb_eq in Ex; subst x.
    destruct (split_slash c) as [|h t] eqn:Ec; [exfalso; exact (split_nonnil c Ec)|].
    rewrite join_cons, <- IH; reflexivity.
  - destruct (split_slash c) as [|h t] eqn:Ec; [exfalso; exact (split_nonnil c Ec)|].
    rewrite <- IH, !join_cons; reflexivity.
Qed.

Lemma join_nonnil c r : c <> [] -> join_slash (c :: r) <> [].
Proof. rewrite join_cons; destruct c; [contradiction|discriminate]. Qed.

Lemma join_not_abs cs : Forall Comp cs -> startswith (join_slash cs) [SLASH] = false.
Proof.
  intros H; destruct H as [|c r [Hc Hn] _]; [reflexivity|]. rewrite join_cons.
  destruct Hn as [|x c Hx _]; [contradiction|].
  cbn [app]; rewrite startswith_cons. apply Z.eqb_neq in Hx; rewrite Hx; reflexivity.
Qed.

(* `escapes` looks at the first component only: at its first three characters, none of them a slash *)
Lemma escapes_join cs : Forall Comp cs -> escapes (or_dot (join_slash cs)) = c_dotdot (hd [] cs).
Proof.
  intros H; destruct H as [|c r [Hc Hn] _]; [reflexivity|].
  rewrite (or_dot_id _ (join_nonnil c r Hc)), join_cons.
  destruct Hn as [|x c Hx%Z.eqb_neq Hn]; [contradiction|].
  destruct Hn as [|y c _ Hn]; [|destruct Hn as [|z c Hz%Z.eqb_neq _]];
    destruct r; unfold escapes, c_dotdot, s_dotdot; cbn [hd app startswith str_eqb]; rewrite Hx, ?Hz;
    destruct (x =? DOT); try destruct (y =? DOT); reflexivity.
Qed.

Lemma np_step_skip isabs st c : c_empty c || c_dot c = true -> np_step isabs st c = st.
Proof. intros H; unfold np_step; rewrite H; reflexivity. Qed.

Lemma np_step_normal isabs st c : Normal c -> np_step isabs st c = c :: st.
Proof. intros (H1 & H2 & H3 & _); unfold np_step; rewrite H1, H2, H3; reflexivity. Qed.

Lemma np_step_dd_pop isabs t st : Normal t -> np_step isabs (t :: st) s_dotdot = st.
Proof.
  intros (_ & _ & H3 & _); unfold np_step; cbn [c_empty s_dotdot c_dot c_dotdot str_eqb orb negb].
  rewrite H3; reflexivity.
Qed.

Lemma np_step_dd_dd isabs st : np_step isabs (s_dotdot :: st) s_dotdot = s_dotdot :: s_dotdot :: st.
Proof. reflexivity. Qed.

Lemma np_step_dd_nil isabs : np_step isabs [] s_dotdot = if isabs then [] else [s_dotdot].
Proof. reflexivity. Qed.

Lemma stays_skip d c r : c_empty c || c_dot c = true -> stays d (c :: r) = stays d r.
Proof. intros H; cbn [stays]; rewrite H; reflexivity. Qed.

Lemma stays_normal d c r : Normal c -> stays d (c :: r) = stays (S d) r.
Proof. intros (H1 & H2 & H3 & _); cbn [stays]; rewrite H1, H2, H3; reflexivity. Qed.

Lemma stays_dd d r : stays d (s_dotdot :: r) = match d with O => false | S d' => stays d' r end.
Proof. reflexivity. Qed.

Lemma stays_normals ns : Forall Normal ns -> forall d, stays d ns = true.
Proof.
  induction 1 as [|c ns Hc _ IH]; intros d; [reflexivity|].
  rewrite (stays_normal _ _ _ Hc); apply IH.
Qed.

(* The stack (new_comps reversed) is normal components on top of k ".."s.
   A ".." pops a normal component; once one finds none to pop it stays at the bottom for good, except
   at the root of an absolute path, where it is dropped.  So k remains 0 exactly when the path is
   absolute or the walk never rises above its starting directory, which is what `stays` computes with
   the number of normal components as depth. *)
Lemma np_fold_spec isabs cs : Forall Noslash cs ->
  forall ns k, Forall Normal ns ->
  exists ns' k',
    fold_left (np_step isabs) cs (ns ++ repeat s_dotdot k) = ns' ++ repeat s_dotdot k'
    /\ Forall Normal ns'
    /\ (k' =? 0)%nat = (k =? 0)%nat && (isabs || stays (List.length ns) cs).
Proof.
  induction 1 as [|c cs Hc _ IH]; intros ns k Hns; cbn [fold_left].
  { exists ns, k; cbn [stays]; rewrite orb_true_r, andb_true_r; auto. }
  destruct (comp_cases c Hc) as [Hskip|[->|Hn]].
  - rewrite (np_step_skip _ _ _ Hskip), (stays_skip _ _ _ Hskip); apply IH, Hns.
  - destruct Hns as [|t ns Ht Hns]; cbn [app].
    + (* nothing to pop: the new bottom is [] ++ k' ".."s, and in each case both sides of the last
         equation compute to the same boolean *)
      destruct k as [|k]; cbn [repeat].
      * rewrite np_step_dd_nil; destruct isabs;
          [exact (IH [] 0%nat (Forall_nil _))|exact (IH [] 1%nat (Forall_nil _))].
      * rewrite np_step_dd_dd; exact (IH [] (S (S k)) (Forall_nil _)).
    + rewrite (np_step_dd_pop _ _ _ Ht); apply IH, Hns.
  - rewrite (np_step_normal _ _ _ Hn), (stays_normal _ _ _ Hn).
    exact (IH (c :: ns) k (Forall_cons _ Hn Hns)).
Qed.

Lemma rev_repeat {A} (x : A) n : rev (repeat x n) = repeat x n.
Proof. induction n as [|n IH]; cbn [repeat rev]; [reflexivity|rewrite IH; symmetry; apply repeat_cons]. Qed.

Lemma np_comps_spec isabs cs : Forall Noslash cs ->
  exists k ns, np_comps isabs cs = repeat s_dotdot k ++ ns /\ Forall Normal ns
               /\ (k =? 0)%nat = isabs || stays 0 cs.
Proof.
  intros H; destruct (np_fold_spec isabs cs H [] 0%nat (Forall_nil _)) as (ns & k & E & Hn & Hk).
  exists k, (rev ns); unfold np_comps; cbn [app repeat] in E; rewrite E, rev_app_distr, rev_repeat.
  auto using Forall_rev.
Qed.

Lemma fold_normals isabs cs : Forall Normal cs ->
  forall st, fold_left (np_step isabs) cs st = rev cs ++ st.
Proof.
  induction 1 as [|c cs Hc _ IH]; intros st; cbn [fold_left rev app]; [reflexivity|].
  rewrite (np_step_normal _ _ _ Hc), IH, <- app_assoc; reflexivity.
Qed.

Lemma fold_dds j : forall i,
  fold_left (np_step false) (repeat s_dotdot j) (repeat s_dotdot i) = repeat s_dotdot (j + i).
Proof.
  induction j as [|j IH]; intros i; cbn [repeat fold_left Nat.add]; [reflexivity|].
  replace (np_step false (repeat s_dotdot i) s_dotdot) with (repeat s_dotdot (S i))
    by (destruct i; reflexivity).
  rewrite IH, Nat.add_succ_r; reflexivity.
Qed.

Lemma np_comps_fix isabs k ns : Forall Normal ns -> (isabs = true -> k = 0%nat) ->
  np_comps isabs (repeat s_dotdot k ++ ns) = repeat s_dotdot k ++ ns.
Proof.
  intros Hn Hk; unfold np_comps; rewrite fold_left_app.
  assert (E : fold_left (np_step isabs) (repeat s_dotdot k) [] = repeat s_dotdot k).
  { destruct isabs; [rewrite (Hk eq_refl); reflexivity|].
    rewrite <- (Nat.add_0_r k) at 2; exact (fold_dds k 0). }
  rewrite E, (fold_normals _ _ Hn), rev_app_distr, rev_involutive, rev_repeat; reflexivity.
Qed.

Lemma np_comps_split_join isabs k ns : Forall Normal ns -> (isabs = true -> k = 0%nat) ->
  np_comps isabs (split_slash (join_slash (repeat s_dotdot k ++ ns))) = repeat s_dotdot k ++ ns.
Proof.
  intros Hn Hk; rewrite split_join by apply form_noslash, Hn.
  destruct (repeat s_dotdot k ++ ns) eqn:E; [reflexivity|].
  rewrite <- E; apply np_comps_fix; assumption.
Qed.

Lemma np_comps_skip_empties isabs i cs : np_comps isabs (repeat [] i ++ cs) = np_comps isabs cs.
Proof. induction i as [|i IH]; [reflexivity|exact IH]. Qed.

(* "" is no special case: its one empty component is skipped and the empty join becomes "." *)
Lemma normpath_unfold s :
  normpath s = or_dot (repeat SLASH (initial_slashes s)
                       ++ join_slash (np_comps (negb (Nat.eqb (initial_slashes s) 0)) (split_slash s))).
Proof. destruct s; reflexivity. Qed.

Lemma normpath_nonempty s : normpath s <> [].
Proof. rewrite normpath_unfold; apply or_dot_nonnil. Qed.

Lemma normpath_dot : normpath s_dot = s_dot.
Proof. reflexivity. Qed.

Lemma initial_slashes_rel s : startswith s [SLASH] = false -> initial_slashes s = 0%nat.
Proof. intros H; unfold initial_slashes; rewrite H; reflexivity. Qed.

Lemma initial_slashes_abs s : startswith s [SLASH] = true ->
  initial_slashes s = 1%nat \/ initial_slashes s = 2%nat.
Proof.
  intros H; unfold initial_slashes; rewrite H.
  destruct (startswith s [SLASH; SLASH] && negb (startswith s [SLASH; SLASH; SLASH])); [right|left]; reflexivity.
Qed.

Lemma initial_slashes_le s : (initial_slashes s <= 2)%nat.
Proof.
  destruct (startswith s [SLASH]) eqn:H;
    [destruct (initial_slashes_abs s H) as [-> | ->]|rewrite (initial_slashes_rel s H)]; lia.
Qed.

Lemma initial_slashes_prefix s : exists p, s = repeat SLASH (initial_slashes s) ++ p.
Proof.
  unfold initial_slashes; destruct (startswith s [SLASH]) eqn:H1; [|exists s; reflexivity].
  destruct (startswith s [SLASH; SLASH] && _) eqn:H2; [apply andb_true_iff in H2 as [H2 _]|];
    apply startswith_app; assumption.
Qed.

Lemma hd_not_slash p : startswith p [SLASH] = false ->
  startswith (SLASH :: p) [SLASH; SLASH] = false.
Proof. intros H; rewrite startswith_cons, H; reflexivity. Qed.

Lemma initial_slashes_repeat i p : (i <= 2)%nat -> startswith p [SLASH] = false ->
  initial_slashes (repeat SLASH i ++ p) = i.
Proof.
  intros Hi H; destruct i as [|[|[|i]]]; [| | |lia]; unfold initial_slashes; cbn [repeat app];
    rewrite ?startswith_cons, H; reflexivity.
Qed.

Lemma split_repeat_slash i p : split_slash (repeat SLASH i ++ p) = repeat [] i ++ split_slash p.
Proof. induction i as [|i IH]; [reflexivity|]. cbn [repeat app]; rewrite split_cons_slash, IH; reflexivity. Qed.

Theorem normpath_form s : exists k ns, Forall Normal ns /\
  normpath s = or_dot (repeat SLASH (initial_slashes s) ++ join_slash (repeat s_dotdot k ++ ns)) /\
  (k =? 0)%nat = negb (initial_slashes s =? 0)%nat || stays 0 (split_slash s).
Proof.
  destruct (np_comps_spec (negb (initial_slashes s =? 0)%nat) _ (split_noslash s)) as (k & ns & E & Hn & Hk).
  exists k, ns; rewrite normpath_unfold, E; auto.
Qed.

Lemma normpath_fix i k ns :
  (i <= 2)%nat -> Forall Normal ns -> (negb (i =? 0)%nat = true -> k = 0%nat) ->
  let q := repeat SLASH i ++ join_slash (repeat s_dotdot k ++ ns) in normpath q = or_dot q.
Proof.
  intros Hi Hn Hk q; unfold q at 1.
  rewrite normpath_unfold, (initial_slashes_repeat i _ Hi (join_not_abs _ (form_comps k ns Hn))).
  rewrite split_repeat_slash, np_comps_skip_empties, np_comps_split_join by assumption; reflexivity.
Qed.

Lemma normpath_or_dot q : normpath q = or_dot q -> normpath (or_dot q) = or_dot q.
Proof. destruct q; [reflexivity|exact id]. Qed.

Theorem normpath_idempotent s : normpath (normpath s) = normpath s.
Proof.
  destruct (normpath_form s) as (k & ns & Hn & -> & Hk).
  apply normpath_or_dot, normpath_fix; [apply initial_slashes_le|exact Hn|].
  intros Ha; rewrite Ha in Hk; apply Nat.eqb_eq, Hk.
Qed.

Theorem normpath_dotdot_leading s :
  exists k rest, split_slash (normpath s) = repeat s_dotdot k ++ rest /\ ~ In s_dotdot rest.
Proof.
  destruct (normpath_form s) as (k & ns & Hn & -> & Hk).
  assert (Hnin : ~ In s_dotdot ns).
  { intros Hin; rewrite Forall_forall in Hn; exact (dotdot_not_normal (Hn _ Hin)). }
  destruct (repeat SLASH _ ++ _) eqn:E.
  { exists 0%nat, [s_dot]; split; [reflexivity|]. intros [H|[]]; discriminate H. }
  cbn [or_dot]; rewrite <- E, split_repeat_slash, split_join by apply form_noslash, Hn.
  destruct (initial_slashes s) as [|i].
  - destruct (repeat s_dotdot k ++ ns) eqn:Ef; [discriminate E|].
    rewrite <- Ef; exists k, ns; auto.
  - (* absolute: k = 0, and the initial slashes show as empty components *)
    apply Nat.eqb_eq in Hk; subst k.
    exists 0%nat, (repeat [] (S i) ++ match ns with [] => [[]] | _ => ns end); split; [reflexivity|].
    intros Hin; apply in_app_or in Hin as [Hin|Hin]; [apply repeat_spec in Hin; discriminate Hin|].
    destruct ns; [destruct Hin as [Hin|[]]; discriminate Hin|exact (Hnin Hin)].
Qed.

Lemma dotdot_leading_no_inner k : forall rest pre c post,
  ~ In s_dotdot rest -> repeat s_dotdot k ++ rest = pre ++ c :: s_dotdot :: post -> c = s_dotdot.
Proof.
  induction k as [|k IH]; intros rest pre c post Hnin E; cbn [repeat app] in E.
  - exfalso; apply Hnin; rewrite E; apply in_or_app; right; right; left; reflexivity.
  - destruct pre as [|x pre]; cbn [app] in E; inversion E; subst; [reflexivity|].
    eapply IH; eassumption.
Qed.

Theorem normpath_no_inner_dotdot s pre c post :
  split_slash (normpath s) = pre ++ c :: s_dotdot :: post -> c = s_dotdot.
Proof.
  destruct (normpath_dotdot_leading s) as [k [rest [E Hnin]]]; rewrite E; intros H.
  eapply dotdot_leading_no_inner; eassumption.
Qed.

(* the length of "/".join(cs) with one more slash at the end *)
Fixpoint width (cs : list str) : nat :=
  match cs with [] => 0 | c :: r => S (List.length c) + width r end.

Lemma width_app a b : width (a ++ b) = (width a + width b)%nat.
Proof. induction a as [|c a IH]; cbn [app width]; [reflexivity|rewrite IH; lia]. Qed.

Lemma width_rev l : width (rev l) = width l.
Proof. induction l as [|c l IH]; cbn [rev width]; [reflexivity|rewrite width_app, IH; cbn [width]; lia]. Qed.

Lemma join_width cs : cs <> [] -> S (List.length (join_slash cs)) = width cs.
Proof.
  induction cs as [|c cs IH]; intros H; [contradiction|]. rewrite join_cons, app_length; cbn [width].
  destruct cs; [cbn; lia|]. cbn [List.length]; rewrite IH by discriminate; lia.
Qed.

Lemma split_width s : width (split_slash s) = S (List.length s).
Proof. rewrite <- (join_width _ (split_nonnil s)), join_split; reflexivity. Qed.

Lemma np_step_width b st c : (width (np_step b st c) <= width (c :: st))%nat.
Proof.
  unfold np_step; destruct (c_empty c || c_dot c); [cbn [width]; lia|].
  destruct (negb (c_dotdot c)); [lia|].
  destruct st as [|t st]; [destruct b|destruct (c_dotdot t)]; cbn [width]; lia.
Qed.

Lemma np_fold_width b cs : forall st,
  (width (fold_left (np_step b) cs st) <= width st + width cs)%nat.
Proof.
  induction cs as [|c cs IH]; intros st; cbn [fold_left width]; [lia|].
  pose proof (IH (np_step b st c)); pose proof (np_step_width b st c); cbn [width] in *; lia.
Qed.

Lemma np_comps_width b cs : (width (np_comps b cs) <= width cs)%nat.
Proof. unfold np_comps; rewrite width_rev; exact (np_fold_width b cs []). Qed.

Theorem normpath_length s : (List.length (normpath s) <= Nat.max 1 (List.length s))%nat.
Proof.
  rewrite normpath_unfold, or_dot_length; destruct (initial_slashes_prefix s) as (p & E).
  (* the initial slashes split into empty components, which the loop skips: it sees those of p only *)
  revert E; generalize (initial_slashes s); intros i ->.
  rewrite split_repeat_slash, np_comps_skip_empties, !app_length.
  pose proof (np_comps_width (negb (i =? 0)%nat) (split_slash p)) as H; rewrite split_width in H.
  destruct (np_comps _ _) as [|c r]; [cbn [join_slash List.length]; lia|].
  rewrite <- join_width in H by discriminate; lia.
Qed.

Lemma escapes_form k ns : Forall Normal ns ->
  escapes (or_dot (join_slash (repeat s_dotdot k ++ ns))) = negb (k =? 0)%nat.
Proof.
  intros Hn; rewrite escapes_join by apply form_comps, Hn.
  destruct k; [|reflexivity]. destruct Hn as [|c r (_ & _ & H & _) _]; [reflexivity|exact H].
Qed.

(* The validator's test on the normal form is the specification's test on the name: absolute, or
   lexically leaving the directory it is relative to. *)
Theorem escapes_normpath s : escapes (normpath s) = leaves_root s.
Proof.
  destruct (normpath_form s) as (k & ns & Hn & -> & Hk); unfold leaves_root.
  destruct (startswith s [SLASH]) eqn:Hab.
  - destruct (initial_slashes_abs s Hab) as [-> | ->]; reflexivity.
  - rewrite (initial_slashes_rel s Hab) in *; cbn [repeat app orb negb Nat.eqb] in *.
    rewrite (escapes_form k ns Hn), Hk; reflexivity.
Qed.

(* The guard `if name:` of the source makes no difference: normpath "" is ".", which is not refused and
   is turned into "" again. *)
Lemma canonical_unfold name :
  canonical_mbox_name name =
  if leaves_root (strip1 name) then Err ENo
  else Ok (let n := normpath (strip1 name) in
           let n := if str_eqb n s_dot then [] else n in if is_inbox n then s_inbox else n).
Proof. rewrite <- escapes_normpath; unfold canonical_mbox_name; destruct (strip1 name); reflexivity. Qed.

Lemma normpath_inside s : leaves_root s = false ->
  exists ns, Forall Normal ns /\ normpath s = or_dot (join_slash ns).
Proof.
  unfold leaves_root; intros H; apply orb_false_iff in H as [Hab Hst]; apply negb_false_iff in Hst.
  destruct (normpath_form s) as (k & ns & Hn & E & Hk).
  rewrite (initial_slashes_rel s Hab), Hst in *; apply Nat.eqb_eq in Hk; subst k; exists ns; auto.
Qed.

Theorem canonical_accept_iff name :
  (exists c, canonical_mbox_name name = Ok c) <-> leaves_root (strip1 name) = false.
Proof.
  rewrite canonical_unfold; destruct (leaves_root _); split; [intros [c H]; discriminate H|discriminate|reflexivity|eexists; reflexivity].
Qed.

Lemma canonical_refuses name : leaves_root (strip1 name) = true -> canonical_mbox_name name = Err ENo.
Proof. rewrite canonical_unfold; intros ->; reflexivity. Qed.

Lemma canonical_refuses_normal_form name :
  escapes (normpath (strip1 name)) = true -> canonical_mbox_name name = Err ENo.
Proof. rewrite escapes_normpath; apply canonical_refuses. Qed.

Lemma canonical_err name e : canonical_mbox_name name = Err e -> e = ENo.
Proof.
  rewrite canonical_unfold; destruct (leaves_root _); [intros [= <-]; reflexivity|discriminate].
Qed.

Definition Clean (c : str) : Prop := c = [] \/ Forall Normal (split_slash c).

Lemma inbox_clean : Clean s_inbox.
Proof. right; repeat constructor; discriminate. Qed.

Lemma clean_join ns : Forall Normal ns -> Clean (join_slash ns).
Proof.
  intros Hn; destruct ns; [left; reflexivity|right].
  rewrite split_join; [exact Hn|apply (form_noslash 0), Hn].
Qed.

(* the validator undoes the "." that or_dot makes of "" *)
Lemma clean_undot c : Clean c -> (if str_eqb (or_dot c) s_dot then [] else or_dot c) = c.
Proof.
  intros [->|Hn]; [reflexivity|]. destruct c as [|x c]; [reflexivity|]; cbn [or_dot].
  destruct (str_eqb (x :: c) s_dot) eqn:Ed; [|reflexivity].
  apply str_eqb_eq in Ed; rewrite Ed in Hn; inversion Hn as [|? ? (_ & H & _) _]; discriminate H.
Qed.

Lemma canonical_clean name c : canonical_mbox_name name = Ok c -> Clean c.
Proof.
  rewrite canonical_unfold; destruct (leaves_root _) eqn:He; [discriminate|]; intros [= <-].
  destruct (normpath_inside _ He) as (ns & Hn%clean_join & ->); cbv zeta; rewrite (clean_undot _ Hn).
  destruct (is_inbox _); [exact inbox_clean|exact Hn].
Qed.

Lemma clean_stays c : Clean c -> leaves_root c = false.
Proof.
  unfold leaves_root; intros [->|Hn]; [reflexivity|].
  rewrite (stays_normals _ Hn), <- (join_split c), join_not_abs; [reflexivity|exact (form_comps 0 _ Hn)].
Qed.

Lemma normpath_clean c : Clean c -> normpath c = or_dot c.
Proof.
  intros [->|Hn]; [reflexivity|].
  pose proof (normpath_fix 0 0 (split_slash c) (Nat.le_0_l 2) Hn (fun _ => eq_refl)) as H.
  cbn [repeat app] in H; rewrite join_split in H; exact H.
Qed.

Lemma canonical_of_clean c : Clean c ->
  canonical_mbox_name c = Ok (if is_inbox c then s_inbox else c).
Proof.
  intros Hc; pose proof (clean_stays c Hc) as Hl; destruct (orb_false_elim _ _ Hl) as [Hab _].
  rewrite canonical_unfold, (strip1_rel c Hab), Hl, (normpath_clean c Hc); cbv zeta.
  rewrite (clean_undot c Hc); reflexivity.
Qed.

Lemma canonical_result_inbox name c :
  canonical_mbox_name name = Ok c -> is_inbox c = true -> c = s_inbox.
Proof.
  rewrite canonical_unfold; cbv zeta; destruct (leaves_root _); [discriminate|].
  generalize (if str_eqb (normpath (strip1 name)) s_dot then [] else normpath (strip1 name)).
  intros n [= <-] Hi. destruct (is_inbox n) eqn:E; [reflexivity|rewrite E in Hi; discriminate Hi].
Qed.

Theorem canonical_idempotent name c : canonical_mbox_name name = Ok c -> canonical_mbox_name c = Ok c.
Proof.
  intros H; rewrite (canonical_of_clean c (canonical_clean _ _ H)).
  destruct (is_inbox c) eqn:Ei; [|reflexivity].
  rewrite (canonical_result_inbox _ _ H Ei); reflexivity.
Qed.

Lemma strip_prefix_app pre rest : strip_prefix pre (pre ++ rest) = Some rest.
Proof. induction pre as [|x pre IH]; cbn [strip_prefix app]; [reflexivity|rewrite str_eqb_refl; exact IH]. Qed.

Lemma root_ok_parts root : root_ok root = true -> c_empty root = false /\ endswith_slash root = false.
Proof.
  unfold root_ok; intros H; apply andb_true_iff in H; destruct H as [H1 H2].
  split; apply negb_true_iff; assumption.
Qed.

(* root/c splits into the components of root followed by those of c, and walking the latter stays *)
Lemma clean_inside root c : root_ok root = true -> Clean c -> inside root (folder_path root c).
Proof.
  intros Hr Hc; apply root_ok_parts in Hr; destruct Hr as [Hr1 Hr2].
  destruct (orb_false_elim _ _ (clean_stays c Hc)) as [Hab Hst]; apply negb_false_iff in Hst.
  unfold inside, insideb, folder_path, path_join.
  rewrite Hab, Hr1, Hr2; cbn [orb]; rewrite split_app_slash, strip_prefix_app; exact Hst.
Qed.

Lemma chain_from_clean cs : forall pre, Forall Normal (pre ++ cs) -> Forall Clean (chain_from pre cs).
Proof.
  induction cs as [|c cs IH]; intros pre H; cbn [chain_from]; [constructor|].
  assert (H' : Forall Normal ((pre ++ [c]) ++ cs)) by (rewrite <- app_assoc; exact H).
  constructor; [apply clean_join; apply Forall_app in H'; apply H'|apply IH, H'].
Qed.

Lemma create_chain_clean c : Clean c -> Forall Clean (create_chain c).
Proof.
  intros [->|H]; [constructor; [left; reflexivity|constructor]|].
  unfold create_chain; apply chain_from_clean; exact H.
Qed.

Lemma chain_paths_inside root c : root_ok root = true -> Clean c ->
  Forall (inside root) (map (folder_path root) (create_chain c)).
Proof.
  intros Hr Hc; apply Forall_map; generalize (create_chain_clean c Hc).
  apply Forall_impl; intros n; apply clean_inside, Hr.
Qed.

Theorem name_confined root name c :
  root_ok root = true -> canonical_mbox_name name = Ok c ->
  inside root (folder_path root c) /\
  Forall (inside root) (map (folder_path root) (create_chain c)).
Proof.
  intros Hr H; pose proof (canonical_clean name c H) as Hc.
  split; [apply clean_inside|apply chain_paths_inside]; assumption.
Qed.

Lemma bind_Ok {A B} (r : res A) (f : A -> res B) y :
  bind r f = Ok y -> exists x, r = Ok x /\ f x = Ok y.
Proof. destruct r as [x|e]; [exists x; auto|discriminate]. Qed.

(* used as an intro pattern where [= <-] would also unfold the path lists inside the equation *)
Lemma Ok_inj {A} (x y : A) : Ok x = Ok y -> x = y.
Proof. intros [= H]; exact H. Qed.

Lemma get_mailbox_paths_inside root n ps : root_ok root = true ->
  get_mailbox_paths root n = Ok ps -> Forall (inside root) ps.
Proof.
  intros Hr H; apply bind_Ok in H as (c & Hc%canonical_clean & [= <-]).
  constructor; [apply clean_inside; assumption|constructor].
Qed.

Lemma sub_mailbox_paths_inside root names : root_ok root = true ->
  Forall (inside root) (sub_mailbox_paths root names).
Proof.
  intros Hr; apply Forall_flat_map, Forall_forall; intros n _.
  destruct (get_mailbox_paths root n) eqn:E; [exact (get_mailbox_paths_inside _ _ _ Hr E)|constructor].
Qed.

Lemma parent_paths_inside root c : root_ok root = true -> Forall (inside root) (parent_paths root c).
Proof.
  intros Hr; unfold parent_paths; destruct (dirname c); [constructor|apply sub_mailbox_paths_inside; exact Hr].
Qed.

Lemma Forall_app_intro {A} (P : A -> Prop) l1 l2 : Forall P l1 -> Forall P l2 -> Forall P (l1 ++ l2).
Proof. intros H1 H2; apply Forall_app; split; assumption. Qed.

(* every list of paths a command derives is put together by cons and ++ from these *)
Create HintDb confined.
#[local] Hint Resolve Forall_nil Forall_cons Forall_app_intro clean_inside chain_paths_inside
  sub_mailbox_paths_inside parent_paths_inside : confined.

(* LIST and LSUB validate three names and derive no path *)
Lemma list_paths_nil r p ps : list_paths r p = Ok ps -> ps = [].
Proof.
  intros H; apply bind_Ok in H as (? & _ & H); apply bind_Ok in H as (? & _ & H).
  apply bind_Ok in H as (? & _ & [= <-]); reflexivity.
Qed.

Theorem cmd_paths_confined root c ps : root_ok root = true ->
  cmd_paths root c = Ok ps -> Forall (inside root) ps.
Proof.
  intros Hr H.
  destruct c as [n|n|n|n|o n|n|n|n|n|n|n|r p|r p]; cbn [cmd_paths] in H;
    try exact (get_mailbox_paths_inside _ _ _ Hr H);
    try (rewrite (list_paths_nil _ _ _ H); constructor).
  - (* CREATE *)
    apply bind_Ok in H as (c & Hc%canonical_clean & <-%Ok_inj); auto 8 with confined.
  - (* DELETE *)
    apply bind_Ok in H as (ps0 & H0%(get_mailbox_paths_inside _ _ _ Hr) & H).
    apply bind_Ok in H as (c & Hc%canonical_clean & <-%Ok_inj); auto 8 with confined.
  - (* RENAME *)
    apply bind_Ok in H as (ps0 & H0%(get_mailbox_paths_inside _ _ _ Hr) & H).
    apply bind_Ok in H as (cn & Hn%canonical_clean & H).
    apply bind_Ok in H as (co & Ho%canonical_clean & <-%Ok_inj); auto 12 with confined.
Qed.

(* a name validated before a refused one passes or is refused itself, with the same error *)
Lemma canonical_bind_refused {B} m (f : str -> res B) :
  (forall c, f c = Err ENo) -> bind (canonical_mbox_name m) f = Err ENo.
Proof.
  intros Hf; destruct (canonical_mbox_name m) eqn:E; [apply Hf|].
  rewrite (canonical_err _ _ E); reflexivity.
Qed.

Lemma list_paths_refused r p n : In n [r; list_pattern p; r ++ list_pattern p] ->
  canonical_mbox_name n = Err ENo -> list_paths r p = Err ENo.
Proof.
  intros Hin Hn; unfold list_paths; destruct Hin as [<-|[<-|[<-|[]]]].
  - rewrite Hn; reflexivity.
  - apply canonical_bind_refused; intros _; rewrite Hn; reflexivity.
  - do 2 (apply canonical_bind_refused; intros _); rewrite Hn; reflexivity.
Qed.

Theorem cmd_paths_refused root c n :
  In n (cmd_names c) -> leaves_root (strip1 n) = true -> cmd_paths root c = Err ENo.
Proof.
  intros Hin Hl; pose proof (canonical_refuses n Hl) as Hn.
  destruct c as [m|m|m|m|o m|m|m|m|m|m|m|r p|r p]; cbn [cmd_paths];
    try exact (list_paths_refused _ _ _ Hin Hn);
    cbn [cmd_names In] in Hin; unfold get_mailbox_paths; intuition subst; try (rewrite Hn; reflexivity).
  (* RENAME destination: the source was looked up first *)
  destruct (canonical_mbox_name o) eqn:Eo; cbn [bind]; [rewrite Hn|rewrite (canonical_err _ _ Eo)]; reflexivity.
Qed.

(* With t not empty c ++ t is too long to be ".", and to be ".." unless c is one character, which
   is not a dot. *)
Lemma normal_app c t : Normal c -> Noslash t -> Normal (c ++ t).
Proof.
  intros Hc Ht; destruct t as [|a t]; [rewrite app_nil_r; exact Hc|].
  destruct Hc as (He & Hd & Hdd & Hn); repeat split; [| | |apply Forall_app; split; assumption];
    unfold c_dot, c_dotdot, s_dot, s_dotdot in *;
    destruct c as [|x [|y [|z c]]]; try discriminate He; cbn [app str_eqb] in *;
    rewrite ?andb_true_r in Hd; rewrite ?Hd, ?andb_false_r; reflexivity.
Qed.

(* the components are those of cn, the last one extended by a slash-free piece, then components of r *)
Lemma clean_append_tail cn r k : Clean cn -> cn <> [] -> Clean r -> Clean (cn ++ skipn k r).
Proof.
  intros Hc Hne [->|Hr]; [rewrite skipn_nil, app_nil_r; exact Hc|].
  destruct Hc as [->|Hcn]; [contradiction|right].
  rewrite <- (firstn_skipn k r), split_app in Hr; apply Forall_app in Hr as [_ Hr].
  rewrite (app_removelast_last [] (split_nonnil cn)) in Hcn; apply Forall_app in Hcn as [Hi Hl].
  rewrite split_app; apply Forall_app; split; [exact Hi|].
  constructor; [|exact (Forall_inv_tail Hr)].
  apply normal_app; [exact (Forall_inv Hl)|].
  pose proof (split_noslash (skipn k r)) as H; destruct H; [constructor|assumption].
Qed.

Lemma rows_of_clean names : Forall Clean (rows_of names).
Proof.
  apply Forall_flat_map, Forall_forall; intros n _.
  destruct (canonical_mbox_name n) eqn:E; [|constructor].
  constructor; [exact (canonical_clean _ _ E)|constructor].
Qed.

Lemma db_step_clean d o : Forall Clean d -> Forall Clean (db_step d o).
Proof.
  intros Hd; destruct o as [n|n|n|o n sel]; cbn [db_step].
  - apply Forall_app; split; [apply rows_of_clean|exact Hd].
  - destruct (canonical_mbox_name n); [|exact Hd]. apply Forall_app; split; [apply rows_of_clean|exact Hd].
  - destruct (canonical_mbox_name n); [|exact Hd].
    exact (incl_Forall (incl_filter _ d) Hd).
  - destruct (canonical_mbox_name n) as [cn|] eqn:En; [|exact Hd].
    destruct (canonical_mbox_name o) as [co|] eqn:Eo; [|exact Hd].
    destruct (c_empty cn) eqn:Ee; [exact Hd|].
    apply Forall_map; revert Hd; apply Forall_impl; intros r Hr. destruct (sel r); [|exact Hr].
    apply clean_append_tail; [exact (canonical_clean _ _ En)|intros ->; discriminate Ee|exact Hr].
Qed.

Lemma db_fold_clean ops : forall d, Forall Clean d -> Forall Clean (fold_left db_step ops d).
Proof. induction ops as [|o ops IH]; intros d Hd; [exact Hd|apply IH, db_step_clean, Hd]. Qed.

Theorem db_rows_clean ops : Forall Clean (db_run ops).
Proof. apply db_fold_clean; constructor. Qed.

Theorem db_rows_inside root ops r : root_ok root = true -> In r (db_run ops) -> inside root (folder_path root r).
Proof.
  intros Hr Hin; apply clean_inside; [exact Hr|].
  pose proof (db_rows_clean ops) as H; rewrite Forall_forall in H; apply H; exact Hin.
Qed.
