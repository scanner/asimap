(* Proofs/MboxOut.v — what the mailbox operations and a step send and queue: no EXPUNGE reaches a session during
   its own non-UID FETCH, STORE or SEARCH (property C01, second clause). *)
From Asimap Require Import Base.Res Spec.SetSem Model.Mbox Model.Phases Proofs.MboxInv Proofs.MboxStep.
Open Scope Z_scope.

Definition clean_for (s : Z) (o : out) : Prop := forall r, In (s, r) o -> is_expunge r = false.

(* [clean_for] is [none_for is_expunge]; [quiet_for] of Proofs/OutcomeP.v is [none_for is_tagged] *)
Section NoneFor.
Variable p : resp -> bool.
Definition none_for (s : Z) (o : out) : Prop := forall r, In (s, r) o -> p r = false.

Lemma none_nil s : none_for s []. Proof. intros r []. Qed.
Lemma none_app s o1 o2 : none_for s o1 -> none_for s o2 -> none_for s (o1 ++ o2).
Proof. intros H1 H2 r Hin. apply in_app_or in Hin. destruct Hin; auto. Qed.
Lemma none_tag s s' rs : (forall r, In r rs -> p r = false) -> none_for s (tag s' rs).
Proof. intros H r Hin. unfold tag in Hin. apply in_map_iff in Hin. destruct Hin as [r0 [E Hr]]. inversion E; subst. auto. Qed.
Lemma none_one s s' r : p r = false -> none_for s [(s', r)].
Proof. intros H r0 [E|[]]. inversion E; subst. exact H. Qed.
End NoneFor.

Lemma existsb_false {A} (f : A -> bool) l : existsb f l = false <-> forall x, In x l -> f x = false.
Proof.
  induction l as [|a l IH]; cbn [existsb In]; [split; [intros _ x []|reflexivity]|].
  rewrite orb_false_iff, IH. split; [intros [Ha H] x [<-|Hx]; auto|auto].
Qed.

(* A resync and a change of flags tell the sessions the new length, the number of recent messages, flags.  With EXPUNGE
   these are the responses a queue can hold ([is_note], Proofs/OutcomeP.v); [is_neutral] of Proofs/MboxInv.v is another cut:
   every response but EXISTS and EXPUNGE. *)
Definition told (r : resp) : bool := match r with RExists _ _ | RRecent _ | RFetch _ _ _ _ => true | _ => false end.

Lemma told_clean r : told r = true -> is_expunge r = false.
Proof. destruct r; cbn; congruence. Qed.
Lemma notes_at_told sl l pos show r : In r (notes_at sl l pos show) -> told r = true.
Proof.
  revert pos; induction l as [|m l IH]; intros pos H; cbn [notes_at] in H; [destruct H|].
  apply in_app_or in H as [H|H]; [|apply (IH _ H)]. destruct (zmem pos sl); [destruct H as [<-|[]]; reflexivity|destruct H].
Qed.
Lemma notes_from_told want l pos show r : In r (notes_from l pos want show) -> told r = true.
Proof.
  revert pos; induction l as [|m l IH]; intros pos H; cbn [notes_from] in H; [destruct H|].
  apply in_app_or in H as [H|H]; [|apply (IH _ H)]. destruct (want m); [destruct H as [<-|[]]; reflexivity|destruct H].
Qed.

Lemma map_out_snd_in {A} (f : A -> A * out) l x : In x (snd (map_out f l)) -> exists a, In a l /\ In x (snd (f a)).
Proof.
  induction l as [|a l IH]; cbn [map_out]; [intros []|]. rewrite !let_pair. cbn [snd].
  intros Hin. apply in_app_or in Hin. destruct Hin as [Hin|Hin].
  - exists a. split; [left; reflexivity|exact Hin].
  - destruct (IH Hin) as [a0 [H1 H2]]. exists a0. split; [right; exact H1|exact H2].
Qed.

Lemma dispatch_out b d rs s r : In (s, r) (snd (dispatch b d rs)) -> In r rs.
Proof.
  unfold dispatch. destruct rs as [|r0 rs']; [intros []|]. rewrite let_pair. cbn [snd].
  intros Hin. apply map_out_snd_in in Hin. destruct Hin as [[s0 c0] [_ Hin]]. unfold dispatch1 in Hin.
  destruct (match d with Some d0 => s0 =? d0 | None => false end); [destruct Hin|].
  destruct (c_idle c0); cbn [snd] in Hin; [|destruct Hin].
  unfold tag in Hin. apply in_map_iff in Hin. destruct Hin as [r1 [E1 H1]]. inversion E1; subst. exact H1.
Qed.
Lemma announce_out b rs s r : In (s, r) (snd (announce b rs)) -> In r rs.
Proof.
  unfold announce. rewrite let_pair. cbn [snd].
  intros Hin. apply map_out_snd_in in Hin. destruct Hin as [[s0 c0] [_ Hin]]. unfold announce1 in Hin.
  destruct (c_pend c0); [|destruct (c_idle c0)]; cbn [snd] in Hin; try (destruct Hin; fail);
    unfold tag in Hin; apply in_map_iff in Hin; destruct Hin as [r1 [E1 H1]]; inversion E1; subst; exact H1.
Qed.
Lemma flush_out b s s' r :
  In (s', r) (snd (flush b s)) -> exists c, get_client b s = Some c /\ In r (c_pend c).
Proof.
  unfold flush. destruct (get_client b s) as [c|]; [|intros []].
  unfold flush1. cbn [snd]. intros Hin. unfold tag in Hin. apply in_map_iff in Hin.
  destruct Hin as [r0 [E H]]. inversion E; subst. exists c. auto.
Qed.

Section Handed.
Variable A : resp -> Prop.

Definition sent (o : out) : Prop := forall s r, In (s, r) o -> A r.
Definition queued (c : client) : Prop := forall r, In r (c_pend c) -> A r.

Lemma sent_nil : sent []. Proof. intros s r []. Qed.
Lemma sent_app a b : sent a -> sent b -> sent (a ++ b).
Proof. intros Ha Hb s r Hin. apply in_app_or in Hin. destruct Hin; eauto. Qed.

Lemma dispatch_sent b d rs : (forall r, In r rs -> A r) -> sent (snd (dispatch b d rs)).
Proof. intros Hrs s r Hin. apply Hrs, (dispatch_out _ _ _ _ _ Hin). Qed.
Lemma announce_sent b rs : (forall r, In r rs -> A r) -> sent (snd (announce b rs)).
Proof. intros Hrs s r Hin. apply Hrs, (announce_out _ _ _ _ Hin). Qed.
Lemma flush_sent b s : all_s queued b s -> sent (snd (flush b s)).
Proof. intros H s' r Hin. apply flush_out in Hin as (c & G & Hr). exact (H c (get_client_in _ _ _ G) r Hr). Qed.

Lemma queued_deliver c rs : (forall r, In r rs -> A r) -> queued c -> queued (deliver c rs).
Proof. intros _ H r Hr. rewrite (proj1 (deliver_pend c rs)) in Hr. exact (H r Hr). Qed.
Lemma queued_pend c rs : (forall r, In r rs -> A r) -> queued c -> queued (pend c rs).
Proof. intros Hrs H r Hr. cbn [pend c_pend] in Hr. apply in_app_or in Hr. destruct Hr; auto. Qed.

Lemma dispatch_queued b d rs s :
  (forall r, In r rs -> A r) -> all_s queued b s -> all_s queued (fst (dispatch b d rs)) s.
Proof. exact (dispatch_kept A queued queued_deliver queued_pend b d rs s). Qed.

Hypothesis Atold : forall r, told r = true -> A r.

Lemma resync_heads n g k r : In r [RExists n g; RRecent k] -> A r.
Proof. intros [<-|[<-|[]]]; apply Atold; reflexivity. Qed.
Lemma notes_from_A want l pos show r : In r (notes_from l pos want show) -> A r.
Proof. intros H. apply Atold, (notes_from_told _ _ _ _ _ H). Qed.

Lemma resync_sent b : sent (snd (resync b)).
Proof.
  unfold resync. destruct (b_disk b); [apply sent_nil|]. rewrite !let_pair. cbn [snd].
  apply sent_app; [apply announce_sent, resync_heads|apply dispatch_sent, notes_from_A].
Qed.
Lemma resync_queued b s : all_s queued b s -> all_s queued (fst (resync b)) s.
Proof.
  apply (resync_kept A queued queued_deliver queued_pend); [intros; apply Atold; reflexivity..|].
  intros l pos want show. apply notes_from_A.
Qed.
Lemma dispatch_notes_sent b d sl ms pos show : sent (snd (dispatch b d (notes_at sl ms pos show))).
Proof. apply dispatch_sent. intros r H. apply Atold, (notes_at_told _ _ _ _ _ H). Qed.
Lemma dispatch_notes_queued b d sl ms pos show s :
  all_s queued b s -> all_s queued (fst (dispatch b d (notes_at sl ms pos show))) s.
Proof. apply dispatch_queued. intros r H. apply Atold, (notes_at_told _ _ _ _ _ H). Qed.
End Handed.

Lemma empty_queued A b s : emptied b s -> all_s (queued A) b s.
Proof. intros H c Hin r Hr. rewrite (H c Hin) in Hr. destruct Hr. Qed.

Definition no_expunge (r : resp) : Prop := is_expunge r = false.

Lemma sent_clean s o : sent no_expunge o -> clean_for s o.
Proof. intros H. exact (H s). Qed.
Lemma resync_clean b s : clean_for s (snd (resync b)).
Proof. apply sent_clean, resync_sent, told_clean. Qed.
Lemma dispatch_notes_clean b d sl ms pos show s : clean_for s (snd (dispatch b d (notes_at sl ms pos show))).
Proof. apply sent_clean, dispatch_notes_sent, told_clean. Qed.
Lemma flush_clean b s : all_s (queued no_expunge) b s -> clean_for s (snd (flush b s)).
Proof. intros H. apply sent_clean, flush_sent, H. Qed.

Lemma gate_seq_clean b s fo b0 o0 : gate b s false fo = Some (b0, o0) -> clean_for s o0.
Proof.
  unfold gate. destruct (get_client b s) as [c|] eqn:G; [|discriminate].
  destruct (pending_expunges c) eqn:P; [discriminate|]. destruct fo; intros [= E]; [|subst o0; apply none_nil].
  apply (f_equal snd) in E. cbn [snd] in E. subst o0. intros r Hin. apply flush_out in Hin. destruct Hin as [c' [G' Hin]]. rewrite G in G'. inversion G'; subst c'.
  exact (proj1 (existsb_false _ _) P r Hin).
Qed.

Lemma in_mbox_clean w s k :
  (forall n b, clean_for s (snd (k n b))) -> clean_for s (snd (in_mbox w s k)).
Proof.
  intros H. unfold in_mbox. destruct (sel w s) as [n|]; [|apply none_one; reflexivity].
  destruct (get_box w n) as [b|]; [apply H|apply none_one; reflexivity].
Qed.

Lemma store_body_clean w n b s u sl act silent flags : clean_for s (snd (store_body w n b s u sl act silent flags)).
Proof.
  unfold store_body. destruct (smem _ flags || _); [apply none_one; reflexivity|]. rewrite let_pair. cbn [snd].
  repeat apply none_app; [apply dispatch_notes_clean| |apply none_one; reflexivity].
  apply none_tag. destruct silent; [intros r []|]. intros r H. apply told_clean, (notes_at_told _ _ _ _ _ H).
Qed.

Lemma fetch_items_clean ms sl k uidc r : In r (fetch_items ms sl k uidc) -> is_expunge r = false.
Proof. intros Hin. apply fetch_items_in in Hin as (p & m & _ & [->| ->]); reflexivity. Qed.
(* what the final flush sends was queued by this FETCH's own dispatch: flag notes only *)
Lemma fetch_body_clean w n b s exam u sl k :
  emptied b s -> clean_for s (snd (fetch_body w n b s exam u sl k)).
Proof.
  intros Q. unfold fetch_body. rewrite !let_pair. cbn [snd].
  repeat apply none_app; [apply none_tag, fetch_items_clean|apply dispatch_notes_clean| |apply none_one; reflexivity].
  apply flush_clean, dispatch_notes_queued; [exact told_clean|].
  apply (upd_client_all_s (fun c => c_pend c = [])); [|exact Q].
  intros c E r Hr. rewrite (proj1 (deliver_pend _ _)), E in Hr. destruct Hr.
Qed.

Lemma body_clean c w n b s exam sl : emptied b s -> clean_for s (snd (body c w n b s exam sl)).
Proof.
  destruct c; intros Q; [apply store_body_clean|apply fetch_body_clean, Q|].
  intros r [H|[H|[]]]; inversion H; reflexivity.
Qed.

(* the atomic command: the gate keeps the queued EXPUNGEs back; the resync queues none behind the queue the gate
   has emptied, so the flush that follows sends none; the body runs on a queue emptied again.  No invariant is needed. *)
Theorem seq_no_expunge w s c : p_uid c = false -> clean_for s (snd (step w (to_op s c))).
Proof.
  intros Hu. rewrite step_eq, Hu. apply in_mbox_clean. intros n b.
  destruct (get_client b s) as [cl|]; [|apply none_one; reflexivity].
  destruct (match c with PStore _ _ _ _ _ => c_exam cl | _ => false end); [apply none_one; reflexivity|].
  destruct (gate b s false true) as [[b0 o0]|] eqn:G; [|apply none_one; reflexivity].
  pose proof (gate_seq_clean _ _ _ _ _ G) as C0. apply gate_empties in G.
  destruct (admitted c w n b0) as [[[b1a o1a] sl]|] eqn:A; [|apply none_app; [exact C0|apply none_one; reflexivity]].
  apply admitted_ok in A as [-> ->]. rewrite let_pair.
  pose proof (body_clean c w n (fst (flush (fst (resync b0)) s)) s (c_exam cl) sl (flush_empties _ s)) as C.
  destruct (body c w n _ s (c_exam cl) sl). cbn [snd] in *.
  repeat apply none_app; [exact C0|apply resync_clean| |exact C].
  apply flush_clean, resync_queued, empty_queued, G. exact told_clean.
Qed.

Theorem store_seq_no_expunge w s st act silent flags :
  winv w -> clean_for s (snd (step w (OStore s false st act silent flags))).
Proof. intros _. exact (seq_no_expunge w s (PStore false st act silent flags) eq_refl). Qed.
Theorem search_seq_no_expunge w s flag : winv w -> clean_for s (snd (step w (OSearch s false flag))).
Proof. intros _. exact (seq_no_expunge w s (PSearch false flag) eq_refl). Qed.
Theorem fetch_seq_no_expunge w s st k : winv w -> clean_for s (snd (step w (OFetch s false st k))).
Proof. intros _. exact (seq_no_expunge w s (PFetch false st k) eq_refl). Qed.
