(* Proofs/ParseS.v — soundness of the parser model: what it accepts is well-formed and is parsed again from
   its canonical sentence; witnesses of the two known findings. *)
From Asimap Require Import Base.Res Base.Bytes Model.Lex Spec.Grammar Model.ParseM Proofs.ParseP Proofs.ParseW.
Import ListNotations.
Open Scope Z_scope.

Theorem parse_core_sound s a r :
  parse_core s = ROk a r -> Z.of_nat (List.length s) < 10 ^ 4300 ->
  wf_canon a = true /\ parse_core (render a canon) = ROk a [].
Proof. intros E Hs. pose proof (parse_core_wf s a r E Hs) as Hw. split; [exact Hw|apply parse_core_render_canon; exact Hw]. Qed.

Theorem parse_render_canon a : wf_canon a = true -> parse (render a canon) = POk a.
Proof. intros H. unfold parse. rewrite (parse_core_render_canon a H). reflexivity. Qed.

Theorem parse_sound s a :
  parse s = POk a -> Z.of_nat (List.length s) < 10 ^ 4300 ->
  wf_canon a = true /\ parse (render a canon) = POk a.
Proof.
  intros Hp Hs. unfold parse in *. destruct (parse_core s) as [a0 r| |k] eqn:E; [|discriminate|destruct k; discriminate].
  inversion Hp; subst a0. destruct (parse_core_sound s a r E Hs) as [Hw Hc]. rewrite Hc. split; [exact Hw|reflexivity].
Qed.

Theorem parse_strict_sound s a :
  parse_strict s = POk a -> Z.of_nat (List.length s) < 10 ^ 4300 ->
  at_end (parse_rest s) = true /\ wf_canon a = true /\ parse_strict (render a canon) = POk a.
Proof.
  intros Hp Hs. unfold parse_strict, parse_rest in *. destruct (parse_core s) as [a0 r| |k] eqn:E; [|discriminate|destruct k; discriminate].
  destruct (at_end r) eqn:Ee; [|discriminate]. inversion Hp; subst a0.
  destruct (parse_core_sound s a r E Hs) as [Hw Hc]. rewrite Hc. repeat split. exact Hw.
Qed.

Theorem wf_wf_canon a : wf a = true -> wf_canon a = true.
Proof. exact (wfb_alt true a). Qed.

(* known finding C08-trailing-text *)
Lemma trailing_text_witness : exists s a, parse s = POk a /\ at_end (parse_rest s) = false.
Proof. exists (bs "a NOOP trailing junk"), (mkAst (bs "a") (CNoArg NNoop)). vm_compute. split; reflexivity. Qed.

(* known finding C08-datetime-2digit-year *)
Lemma year_witness :
  exists s m f msg, parse s = POk (mkAst (bs "a") (CAppend m f (Some (2050, 1, 1, 0, 0, 0, 0)) msg))
                    /\ s = bs "a APPEND x ""01-Jan-0050 00:00:00 +0000"" {1}" ++ [13; 10; 97].
Proof.
  exists (bs "a APPEND x ""01-Jan-0050 00:00:00 +0000"" {1}" ++ [13; 10; 97]), (bs "x"), [], [97].
  vm_compute. split; reflexivity.
Qed.

Lemma covered_all a : covered a = true.
Proof. reflexivity. Qed.
