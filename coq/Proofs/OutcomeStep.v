(* Proofs/OutcomeStep.v — C06 on the world model: queues hold only untagged notifications in every
   reachable world, and every command step answers its issuer exactly once, last. *)
From Asimap Require Import Base.Res Spec.SetSem Model.Mbox Model.Phases Model.Outcome Proofs.MboxInv Proofs.MboxStep Proofs.MboxClosed Proofs.MboxOut Proofs.OutcomeP.
Open Scope Z_scope.

Lemma bQ_closed : closed (fun _ => bQ).
Proof.
  split; intros n.
  - exact resync_Q.
  - exact flush_Q.
  - intros b d sl show. apply dispatch_at_Q.
  - exact expunge_Q.
  - intros b s f. apply upd_Q.
  - intros b s H s0 c0 Hin. apply filter_In in Hin. apply (H s0 c0), Hin.
  - intros b s c Hc H s0 c0 Hin r Hr. apply in_app_or in Hin.
    destruct Hin as [Hin|[Hin|[]]]; [exact (H s0 c0 Hin r Hr)|]. inversion Hin; subst. rewrite Hc in Hr. destruct Hr.
  - intros b H s0 c0 [].
  - intros b k unseen cid0 date. apply with_disk_Q.
  - intros b flags date cid _. apply with_disk_Q.
  - intros b n' src sl _. apply with_disk_Q.
  - intros b act flags sl _. apply set_msgs_Q.
  - intros b k sl. apply set_msgs_Q.
  - intros w b H. unfold maybe_pack. destruct (should_pack w _); [apply set_msgs_Q|]; apply resync_Q, H.
Qed.

Lemma bQ_new (n : string) vv : bQ (new_box vv).
Proof. intros s c []. Qed.

Theorem reachable_wQ a b c ops : wQ (fst (run (init_world a b c) ops)).
Proof. exact (reachable_wall _ bQ_closed bQ_new a b c ops). Qed.

Lemma flush_sel_notifs w s :
  wQ w ->
  notifs_only (snd (match sel w s with
                   | Some n => match get_box w n with
                               | Some b => let '(b', o') := flush b s in (set_box w n b', o')
                               | None => (w, [])
                               end
                   | None => (w, [])
                   end)).
Proof.
  intros Hw. destruct (sel w s) as [n|]; [|apply sent_nil]. destruct (get_box w n) as [b|] eqn:E; [|apply sent_nil].
  rewrite let_pair. apply flush_notifs, (Hw _ _ E).
Qed.

Lemma copy_into_notifs w srcb sl dn w2 o2 src dstu : copy_into w srcb sl dn = Some (w2, o2, src, dstu) -> notifs_only o2.
Proof.
  unfold copy_into. destruct (get_box w dn) as [db|]; [|discriminate].
  destruct (b_msgs srcb); [intros H; inversion H; apply sent_nil|].
  rewrite !let_pair. intros H; inversion H. apply sent_app; apply resync_notifs.
Qed.

(* splits the output at its [++] into the pieces the hints of Proofs/OutcomeP.v speak of *)
Ltac pieces :=
  cbv zeta; rewrite ?let_pair; cbn [snd]; unfold admit_cmd; rewrite <- ?app_assoc;
  repeat first [apply once_single; reflexivity | apply once_app | apply once_cons; [reflexivity|]];
  auto 10 with only_notifs.

Lemma body_once c w n b s exam sl : bQ b -> answered_once s (snd (body c w n b s exam sl)).
Proof.
  intros Hb. destruct c; cbn [body]; unfold store_body, fetch_body, search_body.
  - destruct (_ || _); [pieces|]. destruct silent; pieces.
  - pieces. apply none_tag. intros r Hr. apply fetch_items_in in Hr as (p & m & _ & [->| ->]); reflexivity.
  - pieces.
Qed.

Lemma split_answers_once w s c : wQ w -> answered_once s (snd (step w (to_op s c))).
Proof.
  intros Hw. rewrite step_eq. apply in_mbox_once. intros n b E. pose proof (Hw _ _ E).
  destruct (get_client b s) as [cl|]; [|pieces].
  destruct (match c with PStore _ _ _ _ _ => c_exam cl | _ => false end); [pieces|].
  destruct (gate b s (p_uid c) true) as [[b0 o0]|] eqn:G; [|pieces]. destruct (gate_flush _ _ _ _ _ G) as [-> ->].
  destruct (admitted c w n _) as [[[b1a o1a] sl]|] eqn:A; [|pieces]. apply admitted_ok in A as [-> ->]. rewrite let_pair.
  pose proof (body_once c w n (fst (flush (fst (resync (fst (flush b s)))) s)) s (c_exam cl) sl) as B.
  destruct (body c w n _ s (c_exam cl) sl). pieces.
Qed.

(* IDLE is left out: it answers with a continuation request, and its tagged reply comes with DONE *)
Theorem step_answers_once w o s :
  wQ w -> issuer o = Some s -> o_is_idle o = false -> answered_once s (snd (step w o)).
Proof.
  intros Hw Hi Hn. destruct o; inversion Hi; subst; try discriminate Hn; clear Hi Hn; unfold step.
  - (* OSelect *)
    cbv zeta. destruct (get_box (unselect w s) (lower_inbox m)); pieces.
  - (* OUnselect *)
    destruct (sel w s); pieces.
  - (* OClose *)
    apply in_mbox_once. intros n b E. destruct (get_client b s) as [c|]; [|pieces].
    destruct (c_exam c); [pieces|]. destruct (existsb _ _); pieces.
  - (* ONoop *)
    destruct (sel w s) as [n|]; [|pieces]. destruct (get_box w n) as [b|] eqn:E; [|pieces].
    pose proof (Hw _ _ E). pieces.
  - (* OCheck *)
    apply in_mbox_once. intros n b E. pose proof (Hw _ _ E). pieces.
  - (* ODone *)
    destruct (sel w s) as [n|]; [|pieces]. destruct (get_box w n) as [b|] eqn:E; [|pieces].
    pose proof (Hw _ _ E). pieces.
  - (* OAppend *)
    pose proof (extends_flush_sel _ bQ_closed w s Hw) as [Hw0 _]. pose proof (flush_sel_notifs w s Hw) as N0.
    destruct (match sel w s with Some _ => _ | None => _ end) as [w0 o0]. cbn [fst snd] in Hw0, N0.
    cbv zeta. destruct (get_box w0 (lower_inbox m)) as [b|] eqn:E; [|pieces].
    pose proof (Hw0 _ _ E : bQ b) as Hb. rewrite let_pair. destruct (existsb reserved_kw flags); [pieces|].
    rewrite let_pair.
    match goal with |- context [set_box w0 ?m ?b3] =>
      pose proof (flush_sel_notifs (set_box w0 m b3) s) as N3; destruct (match sel (set_box w0 m b3) s with Some _ => _ | None => _ end) as [w2 o3] end.
    pieces.
    apply notifs_quiet, N3. apply (extends_set_box _ w0); unfold admit_cmd; eauto with only_notifs.
  - exact (split_answers_once w s (PStore uidc set act silent flags) Hw).
  - exact (split_answers_once w s (PFetch uidc set k) Hw).
  - exact (split_answers_once w s (PSearch uidc flag) Hw).
  - (* OExpunge *)
    apply in_mbox_once. intros n b E. pose proof (Hw _ _ E). destruct (get_client b s) as [c|]; [|pieces].
    rewrite let_pair. destruct (c_exam c); [pieces|].
    destruct uset as [st|].
    + destruct (admit_set w n _ true st) as [[[b1 o1] sl]|] eqn:A; [|pieces].
      destruct (admit_set_resync _ _ _ _ _ _ _ _ A) as [-> ->]. pieces.
    + pieces.
  - (* OCopy *)
    cbv zeta. apply in_mbox_once. intros n b E. pose proof (Hw _ _ E). rewrite let_pair.
    destruct (admit_set w n _ uidc set) as [[[b1 o1] sl]|] eqn:A; [|pieces].
    destruct (admit_set_resync _ _ _ _ _ _ _ _ A) as [-> ->].
    destruct (copy_into _ _ sl _) as [[[[w2 o2] src] dstu]|] eqn:C; [|pieces].
    apply copy_into_notifs in C. pieces.
  - (* OMove *)
    cbv zeta. apply in_mbox_once. intros n b E. pose proof (Hw _ _ E) as Hb. destruct (get_client b s) as [c|]; [|pieces].
    destruct (c_exam c); [pieces|]. rewrite let_pair.
    destruct (admit_set w n _ uidc set) as [[[b1 o1] sl]|] eqn:A; [|pieces].
    destruct (admit_set_resync _ _ _ _ _ _ _ _ A) as [-> ->].
    match goal with |- context [copy_into ?w1 ?b1 sl ?d] => destruct (copy_into w1 b1 sl d) as [[[[w2 o2] src] dstu]|] eqn:C;
      [|pieces]; assert (Hw2 : wQ w2) end.
    { refine (proj1 (extends_copy_into _ bQ_closed _ n _ _ _ _ _ _ _ _ _ C)); [apply extends_set_box; [exact Hw|]|]; eauto with only_notifs. }
    apply copy_into_notifs in C. destruct src as [|u0 src']; [pieces|].
    destruct (get_box w2 n) as [sb|] eqn:E2; [|pieces].
    pose proof (Hw2 _ _ E2 : bQ sb). pieces. apply none_one. reflexivity.
Qed.
