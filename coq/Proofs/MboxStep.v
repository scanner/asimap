(* Proofs/MboxStep.v — every step of Model/Mbox.v preserves the world invariant
   (FIFO/view invariant of C01 + UID order invariant of C02). *)
From Asimap Require Import Base.Res Spec.SetSem Model.Mbox Model.Phases Proofs.MboxInv.
Open Scope Z_scope.

Lemma get_box_append w m b n :
  alist_get (w_boxes w ++ [(m, b)]) n =
  match get_box w n with Some x => Some x | None => if String.eqb n m then Some b else None end.
Proof.
  unfold get_box. induction (w_boxes w) as [|[k v] l IH]; cbn [app alist_get]; [reflexivity|].
  destruct (String.eqb n k); [reflexivity|exact IH].
Qed.

(* the mailbox CREATE makes, and the INBOX the world starts with *)
Definition new_box (vv : Z) : mbox := {| b_msgs := []; b_next := 1; b_vv := vv; b_clients := []; b_disk := [] |}.

Lemma init_box a b c n bx : get_box (init_world a b c) n = Some bx -> bx = new_box 1.
Proof.
  unfold get_box, init_world. cbn [w_boxes alist_get]. destruct (String.eqb n "inbox"); [|discriminate].
  intros [= <-]. reflexivity.
Qed.

Lemma boxinv_new vv : boxinv (new_box vv).
Proof.
  split; [constructor|]. unfold uinv, uids. cbn [new_box b_msgs map b_next].
  split; [constructor|]. split; [constructor|lia].
Qed.

(* OPoll, [run] and [ev_run] are folds whose accumulator is a world beside its output *)
Lemma fold_inv {A B} (I : world -> Prop) (f : world * B -> A -> world * B) l :
  (forall w o a, I w -> I (fst (f (w, o) a))) -> forall w o, I w -> I (fst (fold_left f l (w, o))).
Proof.
  intros Hf. induction l as [|a l IH]; intros w o Hw; cbn [fold_left]; [exact Hw|].
  specialize (Hf w o a Hw). destruct (f (w, o) a) as [w1 o1]. apply IH, Hf.
Qed.

Lemma get_box_map_clients l n :
  alist_get (map (fun nb : string * mbox => (fst nb, set_clients (snd nb) [])) l) n =
  option_map (fun b => set_clients b []) (alist_get l n).
Proof.
  induction l as [|[k v] l IH]; cbn [map alist_get fst snd option_map]; [reflexivity|].
  destruct (String.eqb n k); [reflexivity|exact IH].
Qed.

Lemma restart_box w n b : get_box w n = Some b -> get_box (fst (step w ORestart)) n = Some (set_clients b []).
Proof.
  intros H. unfold step. cbn [fst]. unfold get_box in *. cbn [w_boxes]. rewrite get_box_map_clients, H. reflexivity.
Qed.

Lemma mkbox_vv w m : get_box w m = None ->
  exists b, get_box (fst (step w (OMkbox m))) m = Some b /\ b_vv b = w_vv w + 1 /\ b_msgs b = [] /\ b_next b = 1.
Proof.
  intros H. unfold step. rewrite H. cbn [fst]. unfold get_box. cbn [w_boxes]. rewrite get_box_append, H, String.eqb_refl.
  eexists. split; [reflexivity|]. cbn. auto.
Qed.

Lemma admit_is_resync w n b : admit_cmd w n b = resync b. Proof. reflexivity. Qed.

Lemma admit_set_resync w m b uidc st b1 o1 sl :
  admit_set w m b uidc st = Ok (b1, o1, sl) -> b1 = fst (resync b) /\ o1 = snd (resync b).
Proof.
  unfold admit_set. destruct (resolve b uidc st); [|discriminate]. rewrite admit_is_resync, let_pair.
  destruct (resolve _ uidc st); [|discriminate]. intros [= <- <- _]. split; reflexivity.
Qed.

Lemma admit_set_inv w n b uidc st o (k : mbox -> out -> list Z -> world * out) :
  winv w -> boxinv b -> (forall o1 sl, winv (fst (k (fst (resync b)) o1 sl))) ->
  winv (fst (match admit_set w n b uidc st with Ok (b1, o1, sl) => k b1 o1 sl | Err _ => (set_box w n b, o) end)).
Proof.
  intros Hw Hb Hk. destruct (admit_set w n b uidc st) as [[[b1 o1] sl]|] eqn:A; [|apply winv_set_box; assumption].
  apply admit_set_resync in A as [-> _]. apply Hk.
Qed.

Lemma gate_flush b s u b0 o0 : gate b s u true = Some (b0, o0) -> b0 = fst (flush b s) /\ o0 = snd (flush b s).
Proof.
  unfold gate. destruct (get_client b s); [|discriminate].
  destruct (pending_expunges c); [destruct u; [|discriminate]|]; intros H; inversion H as [H1]; rewrite H1; split; reflexivity.
Qed.
Lemma gate_inv b s u b0 o0 : boxinv b -> gate b s u true = Some (b0, o0) -> boxinv b0.
Proof. intros Hb G. apply gate_flush in G as [-> _]. apply flush_inv, Hb. Qed.
Lemma gate_empties b s u b0 o0 : gate b s u true = Some (b0, o0) -> emptied b0 s.
Proof. intros G. apply gate_flush in G as [-> _]. apply flush_empties. Qed.

(* FETCH, STORE and SEARCH: the two matches on the kind of command inside Model/Phases.v [execute_gen], which `step`
   repeats for each of the three: how the command is admitted and which body runs ([step_eq], [execute_eq]) *)
Definition admitted (c : pcmd) (w : world) (n : string) (b : mbox) : res (mbox * out * list Z) :=
  match c with
  | PStore u st _ _ _ | PFetch u st _ => admit_set w n b u st
  | PSearch _ _ => let '(b1, o1) := admit_cmd w n b in Ok (b1, o1, [])
  end.
Definition body (c : pcmd) (w : world) (n : string) (b1 : mbox) (s : Z) (exam : bool) (sl : list Z) : world * out :=
  match c with
  | PStore u _ act silent flags => store_body w n b1 s u sl act silent flags
  | PFetch u _ k => fetch_body w n b1 s exam u sl k
  | PSearch u flag => search_body w n b1 s u flag
  end.

Lemma admitted_ok c w n b b1 o1 sl : admitted c w n b = Ok (b1, o1, sl) -> b1 = fst (resync b) /\ o1 = snd (resync b).
Proof.
  destruct c; cbn [admitted]; try apply admit_set_resync.
  rewrite admit_is_resync, let_pair. intros [= <- <-]. split; reflexivity.
Qed.

Lemma step_eq w s c :
  step w (to_op s c) =
  in_mbox w s (fun n b =>
    match get_client b s with
    | None => (w, [(s, RNo)])
    | Some cl =>
        if (match c with PStore _ _ _ _ _ => c_exam cl | _ => false end) then (w, [(s, RNo)])
        else match gate b s (p_uid c) true with
             | None => (w, [(s, RNo)])
             | Some (b0, o0) =>
                 match admitted c w n b0 with
                 | Err _ => (set_box w n b0, o0 ++ [(s, RBad)])
                 | Ok (b1a, o1a, sl) =>
                     let '(b1, o1b) := flush b1a s in
                     let '(w', o) := body c w n b1 s (c_exam cl) sl in (w', o0 ++ (o1a ++ o1b) ++ o)
                 end
             end
    end).
Proof.
  destruct c as [u st act silent flags|u st k|u flag]; cbn [to_op step p_uid admitted body]; unfold in_mbox;
    destruct (sel w s) as [n|]; try reflexivity; destruct (get_box w n) as [b|]; try reflexivity.
  - destruct (get_client b s) as [cl|]; [|reflexivity]. destruct (c_exam cl); [reflexivity|].
    destruct (gate b s u true) as [[b0 o0]|]; [|reflexivity].
    destruct (admit_set w n b0 u st) as [[[b1a o1a] sl]|]; [|reflexivity]. destruct (flush b1a s) as [b1 o1b].
    unfold store_body. destruct (_ || _); [reflexivity|]. destruct (dispatch _ _ _). reflexivity.
  - destruct (get_client b s) as [cl|]; [|reflexivity]. destruct (gate b s u true) as [[b0 o0]|]; [|reflexivity].
    destruct (admit_set w n b0 u st) as [[[b1a o1a] sl]|]; [|reflexivity]. destruct (flush b1a s) as [b1 o1b].
    unfold fetch_body, fetch_items, fetch_touch, fetch_changed. destruct (dispatch _ _ _). destruct (flush _ s). reflexivity.
  - (* SEARCH leaves the lookup of the session to the gate *)
    unfold gate. destruct (get_client b s) as [cl|]; [|reflexivity].
    destruct (if pending_expunges cl then _ else _) as [[b0 o0]|]; [|reflexivity].
    destruct (admit_cmd w n b0) as [b1a o1a]. destruct (flush b1a s) as [b1 o1b]. reflexivity.
Qed.

Lemma execute_eq w s c :
  execute w s c =
  in_mbox w s (fun n b =>
    match get_client b s with
    | None => (w, [(s, RNo)])
    | Some cl =>
        match admitted c w n b with
        | Err _ => match gate b s (p_uid c) true with
                   | None => (w, [(s, RNo)])
                   | Some (b0, o0) => (set_box w n b0, o0 ++ [(s, RBad)])
                   end
        | Ok (b1a, o1a, sl) =>
            match gate b1a s (p_uid c) true with
            | None => (set_box w n b1a, o1a ++ [(s, RNo)])
            | Some (b1, o1b) => let '(w', o) := body c w n b1 s (c_exam cl) sl in (w', o1a ++ o1b ++ o)
            end
        end
    end).
Proof. reflexivity. Qed.

(* what the bodies of FETCH, STORE and SEARCH run on *)
Lemma let_through_inv b s :
  boxinv b ->
  boxinv (fst (flush (fst (resync (fst (flush b s)))) s)) /\
  emptied (fst (flush (fst (resync (fst (flush b s)))) s)) s.
Proof.
  intros Hb. pose proof (resync_inv _ (flush_inv b s Hb)) as H. split; [apply flush_inv, H|apply flush_empties].
Qed.

Lemma store_box_inv b s sl f (silent show : bool) :
  boxinv b -> emptied b s -> (forall m, m_uid (f m) = m_uid m) ->
  let ms := map_at f sl (b_msgs b) 1 in
  boxinv (upd_client (fst (dispatch (set_msgs b ms) (Some s) (notes_at sl ms 1 false))) s
                     (fun c => deliver c (if silent then [] else notes_at sl ms 1 show))).
Proof.
  intros Hb Q Hf ms. apply deliver_to_issuer_inv.
  - apply dispatch_valid_inv, notes_at_valid_ms. apply set_msgs_same_uids; [apply map_at_uids, Hf|exact Hb].
  - apply dispatch_kept_skipped, empty_neutral, Q.
  - rewrite uids_of_dispatch. destruct silent; [constructor|apply notes_at_valid_ms].
Qed.

Lemma items_valid ms sl (mk : Z -> msg -> resp) :
  (forall p m, znth ms (p - 1) = Some m -> valid_on (map m_uid ms) (mk p m)) ->
  Forall (valid_on (map m_uid ms))
         (flat_map (fun p => match znth ms (p - 1) with Some m => [mk p m] | None => [] end) sl).
Proof.
  intros H. induction sl as [|p sl IH]; cbn [flat_map]; [constructor|].
  apply Forall_app; split; [|exact IH]. destruct (znth ms (p - 1)) as [m|] eqn:E; repeat constructor. apply H, E.
Qed.

Lemma fetch_items_in ms sl k u r :
  In r (fetch_items ms sl k u) ->
  exists p m, znth ms (p - 1) = Some m /\
    (r = fetch_note p m u \/ r = RBody p (if u then Some (m_uid m) else None) (m_cid m) (m_date m) (m_uid m)).
Proof.
  intros Hin. apply in_flat_map in Hin as [p [_ Hin]]. destruct (znth ms (p - 1)) as [m|] eqn:E; [|destruct Hin].
  exists p, m. split; [exact E|]. destruct k; repeat (destruct Hin as [<-|Hin]; [auto|]); destruct Hin.
Qed.

Lemma fetch_box_inv b s items touch chg :
  boxinv b -> emptied b s -> Forall (valid_on (uids b)) items ->
  (forall m, m_uid (touch m) = m_uid m) ->
  let ms := map_at touch chg (b_msgs b) 1 in
  boxinv (fst (flush (fst (dispatch (set_msgs (upd_client b s (fun c => deliver c items)) ms) None
                                    (notes_at chg ms 1 false))) s)).
Proof.
  intros Hb Q Hi Hf ms. apply flush_inv, dispatch_valid_inv, notes_at_valid_ms.
  apply set_msgs_same_uids; [apply map_at_uids, Hf|]. apply deliver_to_issuer_inv; [exact Hb|apply empty_neutral, Q|exact Hi].
Qed.

Lemma store_body_inv w n b s u sl act silent flags :
  winv w -> boxinv b -> emptied b s -> winv (fst (store_body w n b s u sl act silent flags)).
Proof.
  intros Hw Hb Q. unfold store_body. destruct (smem _ flags || _); [apply winv_set_box; assumption|].
  rewrite let_pair. apply winv_set_box; [exact Hw|]. apply store_box_inv; trivial.
Qed.
Lemma fetch_body_inv w n b s exam u sl k :
  winv w -> boxinv b -> emptied b s -> winv (fst (fetch_body w n b s exam u sl k)).
Proof.
  intros Hw Hb Q. unfold fetch_body. rewrite !let_pair. apply winv_set_box; [exact Hw|].
  apply fetch_box_inv; trivial; [|intros m; destruct k; reflexivity].
  apply Forall_forall. intros r Hr. apply fetch_items_in in Hr as (p & m & E & [->| ->]); apply znth_uids in E;
    [apply fetch_note_valid|apply body_valid]; exact E.
Qed.

Lemma body_inv c w n b s exam sl :
  winv w -> boxinv b -> emptied b s -> winv (fst (body c w n b s exam sl)).
Proof.
  destruct c; [apply store_body_inv|apply fetch_body_inv|]. intros Hw Hb _. apply winv_set_box; assumption.
Qed.

Lemma split_inv w s c : winv w -> winv (fst (step w (to_op s c))).
Proof.
  intros Hw. rewrite step_eq. apply in_mbox_inv; [exact Hw|]. intros n b E. pose proof (Hw _ _ E) as Hb.
  destruct (get_client b s) as [cl|]; [|exact Hw].
  destruct (match c with PStore _ _ _ _ _ => c_exam cl | _ => false end); [exact Hw|].
  destruct (gate b s (p_uid c) true) as [[b0 o0]|] eqn:G; [|exact Hw]. apply gate_flush in G as [-> _].
  destruct (admitted c w n _) as [[[b1a o1a] sl]|] eqn:A; [|apply winv_set_box; [exact Hw|apply flush_inv, Hb]].
  apply admitted_ok in A as [-> _]. rewrite let_pair. destruct (let_through_inv b s Hb) as [H1 Q1].
  pose proof (body_inv c w n _ s (c_exam cl) sl Hw H1 Q1) as H. destruct (body c w n _ s (c_exam cl) sl). exact H.
Qed.

(* IDLE: the queue is sent before the session is marked idling *)
Lemma idle_box_inv b s : boxinv b -> boxinv (upd_client (fst (flush b s)) s (fun c => set_idle c true)).
Proof. intros Hb. apply set_idle_inv; [apply flush_inv, Hb|]. intros _. apply flush_empties. Qed.

(* the tail of EXPUNGE and MOVE: the issuer poses as idling while the mailbox is resynced and expunged, so it is
   sent everything at once and its queue is still empty when its idle flag is put back *)
Lemma expunge_box_inv b s del was :
  boxinv b ->
  boxinv (upd_client (fst (expunge (fst (resync (upd_client (fst (flush b s)) s (fun c => set_idle c true)))) del)) s
                     (fun c => set_idle c was)).
Proof.
  intros Hb. pose proof (expunge_inv _ del (resync_inv _ (idle_box_inv b s Hb))) as H2.
  apply set_idle_inv; [exact H2|]. intros _ c Hin.
  apply (binv_in _ _ _ (proj1 H2) Hin). revert c Hin.
  assert (Pd : forall c rs, (forall r, In r rs -> True) -> c_idle c = true -> c_idle (deliver c rs) = true)
    by (intros c rs _ <-; apply deliver_pend).
  apply (expunge_kept (fun _ => True) _ Pd), (resync_kept (fun _ => True) _ Pd); trivial.
  apply (upd_client_all_s (fun _ => True)); [reflexivity|intros c _; exact I].
Qed.

(* APPEND sends the issuer's queue on the mailbox it has selected, before and after *)
Lemma flush_sel_inv w s (k : world -> out -> world * out) :
  winv w -> (forall w0 o0, winv w0 -> winv (fst (k w0 o0))) ->
  winv (fst (let '(w0, o0) := match sel w s with
                              | Some n => match get_box w n with
                                          | Some b => let '(b', o') := flush b s in (set_box w n b', o')
                                          | None => (w, [])
                                          end
                              | None => (w, [])
                              end in k w0 o0)).
Proof.
  intros Hw Hk. rewrite let_pair. apply Hk, sel_inv; [exact Hw|]. intros n b _ Hb.
  apply winv_let. apply winv_set_box; [exact Hw|]. apply flush_inv, Hb.
Qed.

Lemma copy_into_inv w srcb sl dn w2 o2 src dstu :
  winv w -> copy_into w srcb sl dn = Some (w2, o2, src, dstu) -> winv w2.
Proof.
  intros Hw. unfold copy_into. destruct (get_box w dn) as [db|] eqn:E; [|discriminate].
  destruct (b_msgs srcb); [intros [= <- _ _ _]; exact Hw|].
  rewrite admit_is_resync, !let_pair. intros [= <- _ _ _]. apply winv_set_box; [exact Hw|].
  apply resync_inv, with_disk_inv, resync_inv, (Hw _ _ E).
Qed.

Lemma copied_inv w srcb sl dn o (k : world -> out -> list Z -> list Z -> world * out) :
  winv w -> (forall w2 o2 src dstu, winv w2 -> winv (fst (k w2 o2 src dstu))) ->
  winv (fst (match copy_into w srcb sl dn with Some (w2, o2, src, dstu) => k w2 o2 src dstu | None => (w, o) end)).
Proof.
  intros Hw Hk. destruct (copy_into w srcb sl dn) as [[[[w2 o2] src] dstu]|] eqn:C; [|exact Hw].
  apply Hk, (copy_into_inv _ _ _ _ _ _ _ _ Hw C).
Qed.

(* Every command ends by putting a mailbox back with [set_box]; what it is put back as is a chain of the
   mailbox operations above, applied to a mailbox of w. *)
Theorem step_inv w o : winv w -> winv (fst (step w o)).
Proof.
  intros Hw. destruct o; unfold step, admit_cmd; cbv beta iota.
  - (* OSelect *)
    pose proof (unselect_inv w s Hw) as Hw1.
    destruct (get_box (unselect w s) (lower_inbox m)) as [b|] eqn:E; [|exact Hw1].
    apply winv_let. apply winv_set_box; [exact Hw1|].
    apply add_client_inv, resync_inv, (Hw1 _ _ E).
  - (* OUnselect *)
    destruct (sel w s); [apply unselect_inv|]; exact Hw.
  - (* OClose *)
    apply sel_inv; [exact Hw|]. intros n b _ Hb. destruct (get_client b s) as [c|]; [|exact Hw].
    pose proof (remove_client_inv b s Hb) as H0.
    destruct (c_exam c); [apply winv_set_box; trivial|].
    destruct (existsb _ _); [|apply winv_set_box; trivial].
    repeat apply winv_let. apply winv_set_box; [exact Hw|]. apply expunge_inv, resync_inv, H0.
  - (* ONoop *)
    apply sel_inv; [exact Hw|]. intros n b _ Hb.
    repeat apply winv_let. apply winv_set_box; [exact Hw|]. apply flush_inv, resync_inv, Hb.
  - (* OCheck *)
    apply sel_inv; [exact Hw|]. intros n b _ Hb.
    repeat apply winv_let. apply winv_set_box; [exact Hw|]. apply let_through_inv, Hb.
  - (* OIdle *)
    apply sel_inv; [exact Hw|]. intros n b _ Hb.
    apply winv_let. apply winv_set_box; [exact Hw|]. apply idle_box_inv, Hb.
  - (* ODone *)
    apply sel_inv; [exact Hw|]. intros n b _ Hb.
    apply winv_let. apply winv_set_box; [exact Hw|].
    apply flush_inv, set_idle_inv; [exact Hb|discriminate].
  - (* OAppend *)
    apply flush_sel_inv; [exact Hw|]. intros w0 o0 Hw0.
    destruct (get_box w0 (lower_inbox m)) as [b|] eqn:E; [|exact Hw0].
    apply winv_let. pose proof (resync_inv _ (Hw0 _ _ E)) as H1.
    destruct (existsb reserved_kw flags); [apply winv_set_box; trivial|].
    apply winv_let. apply flush_sel_inv; [|trivial].
    apply winv_set_box; [exact Hw0|]. apply resync_inv, with_disk_inv, H1.
  - exact (split_inv w s (PStore uidc set act silent flags) Hw).
  - exact (split_inv w s (PFetch uidc set k) Hw).
  - exact (split_inv w s (PSearch uidc flag) Hw).
  - (* OExpunge *)
    apply sel_inv; [exact Hw|]. intros n b _ Hb.
    destruct (get_client b s) as [c|]; [|exact Hw]. apply winv_let.
    destruct (c_exam c); [apply winv_set_box; [exact Hw|apply flush_inv, Hb]|].
    destruct uset as [st|].
    + destruct (admit_set w n _ true st) as [[[b1 o1] sl]|] eqn:A.
      * apply admit_set_resync in A as [-> _]. apply winv_let. apply winv_set_box; [exact Hw|]. apply expunge_box_inv, Hb.
      * apply winv_set_box; [exact Hw|]. apply set_idle_inv; [apply idle_box_inv, Hb|]. intros _.
        apply (upd_client_all_s (fun c0 => c_pend c0 = [])); [trivial|apply flush_empties].
    + rewrite !let_pair. apply winv_set_box; [exact Hw|]. apply expunge_box_inv, Hb.
  - (* OCopy *)
    apply sel_inv; [exact Hw|]. intros n b _ Hb. apply winv_let.
    apply admit_set_inv; [exact Hw|apply flush_inv, Hb|]. intros o1 sl.
    apply copied_inv; [apply winv_set_box; [exact Hw|apply resync_inv, flush_inv, Hb]|]. trivial.
  - (* OMove *)
    apply sel_inv; [exact Hw|]. intros n b _ Hb.
    destruct (get_client b s) as [c|]; [|exact Hw]. destruct (c_exam c); [exact Hw|]. apply winv_let.
    apply admit_set_inv; [exact Hw|apply flush_inv, Hb|]. intros o1 sl.
    apply copied_inv; [apply winv_set_box; [exact Hw|apply resync_inv, flush_inv, Hb]|]. intros w2 o2 src dstu Hw2.
    destruct src as [|u0 src']; [exact Hw2|]. destruct (get_box w2 n) as [sb|] eqn:E2; [|exact Hw2].
    repeat apply winv_let. apply winv_set_box; [exact Hw2|]. apply expunge_box_inv, (Hw2 _ _ E2).
  - (* ODeliver *)
    destruct (get_box w m) as [b|] eqn:E; [|exact Hw].
    apply winv_set_box; [exact Hw|]. apply with_disk_inv, (Hw _ _ E).
  - (* OPoll *)
    apply (fold_inv winv); [|exact Hw]. intros w1 o1 nb Hw1.
    destruct (get_box w1 (fst nb)) as [b|] eqn:E; [|exact Hw1].
    apply winv_let. apply winv_set_box; [exact Hw1|]. pose proof (resync_inv _ (Hw1 _ _ E)).
    destruct (snd (resync b)); [apply maybe_pack_inv|]; trivial.
  - (* OMkbox *)
    destruct (get_box w m) as [b|] eqn:E; [exact Hw|]. cbn [fst].
    intros n' b' H. unfold get_box in H. cbn [w_boxes] in H. rewrite get_box_append in H.
    destruct (get_box w n') as [x|] eqn:E'; [inversion H; subst; apply (Hw _ _ E')|].
    destruct (String.eqb n' m); [inversion H; subst; apply boxinv_new|discriminate].
  - (* ORestart *)
    cbn [fst]. intros n' b' H. unfold get_box in H. cbn [w_boxes] in H. rewrite get_box_map_clients in H.
    destruct (alist_get (w_boxes w) n') as [b0|] eqn:E; [|discriminate]. cbn [option_map] in H. inversion H; subst b'.
    destruct (Hw n' b0 E) as [_ Hu]. split; [constructor|exact Hu].
Qed.

Lemma restart_inv w : winv w -> winv (fst (step w ORestart)).
Proof. exact (step_inv w ORestart). Qed.

Lemma init_inv a b c : winv (init_world a b c).
Proof. intros n bx H. rewrite (init_box _ _ _ _ _ H). apply boxinv_new. Qed.

Theorem run_inv ops : forall w, winv w -> winv (fst (run w ops)).
Proof. intros w Hw. apply (fold_inv winv); [|exact Hw]. intros w1 outs o Hw1. rewrite let_pair. apply step_inv, Hw1. Qed.

Theorem reachable_inv a b c ops : winv (fst (run (init_world a b c) ops)).
Proof. apply run_inv. apply init_inv. Qed.

Lemma reachable_binv ps pn pd ops n b :
  get_box (fst (run (init_world ps pn pd) ops)) n = Some b ->
  Forall (fun p => c_ok (snd p) = true /\
                   apply_resps (c_view (snd p)) (c_pend (snd p)) = Some (uids b) /\
                   (c_idle (snd p) = true -> c_pend (snd p) = [])) (b_clients b).
Proof. intros H. exact (proj1 (reachable_inv ps pn pd ops n b H)). Qed.

(* after the gate and the resync of a FETCH/STORE/SEARCH the issuer's replayed view IS the server's
   list: the sequence numbers the command is about to accept denote the same UIDs on both sides *)
Lemma synced_after_admit b s :
  boxinv b ->
  let b1 := fst (resync (fst (flush b s))) in
  all_s (fun c => c_view c = uids b1) b1 s.
Proof.
  intros Hb b1 c Hin. pose proof (resync_inv _ (flush_inv b s Hb)) as H1.
  apply (cinv_neutral_view _ _ (binv_in _ _ _ (proj1 H1) Hin)).
  exact (resync_neutral _ s (flush_empties b s) c Hin).
Qed.

(* NOOP, CHECK, DONE, IDLE: anything ending in a flush *)
Lemma synced_after_flush b s :
  boxinv b -> all_s (fun c => c_pend c = [] /\ c_view c = uids (fst (flush b s))) (fst (flush b s)) s.
Proof.
  intros Hb c Hin. split; [exact (flush_empties b s c Hin)|].
  rewrite (flush_view b s c (proj1 Hb) Hin). unfold uids. destruct (flush_msgs b s) as [M _]. rewrite M. reflexivity.
Qed.
