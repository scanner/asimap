(* Proofs/MboxUid.v — consequences of the invariants for C02 (UID order, no reuse, UIDNEXT,
   APPENDUID) and C03 (binding of UID to content, sequence/UID forms address the same messages). *)
From Asimap Require Import Base.Res Spec.SetSem Model.Mbox Proofs.MboxInv Proofs.MboxStep Proofs.MboxLe Proofs.MboxExact.
From Coq Require Import Sorting.Sorted.
Open Scope Z_scope.

Lemma sorted_lt_NoDup (l : list Z) : StronglySorted Z.lt l -> NoDup l.
Proof.
  induction 1 as [|x l Hs IH Hx]; constructor; [|exact IH].
  intros Hin. rewrite Forall_forall in Hx. specialize (Hx x Hin). lia.
Qed.
Lemma NoDup_map_inj {A B} (f : A -> B) l x y : NoDup (map f l) -> In x l -> In y l -> f x = f y -> x = y.
Proof.
  induction l as [|a l IH]; intros Hnd Hx Hy E; [destruct Hx|]. cbn [map] in Hnd. inversion Hnd as [|? ? Ha Hnd']; subst.
  destruct Hx as [->|Hx], Hy as [->|Hy]; trivial.
  - destruct Ha. rewrite E. apply in_map, Hy.
  - destruct Ha. rewrite <- E. apply in_map, Hx.
  - apply IH; trivial.
Qed.

Lemma sorted_uid_inj (l : list msg) m1 m2 :
  StronglySorted Z.lt (map m_uid l) -> In m1 l -> In m2 l -> m_uid m1 = m_uid m2 -> m1 = m2.
Proof. intros Hs. apply NoDup_map_inj, sorted_lt_NoDup, Hs. Qed.

(* a UID that survives a step still names the same content and internal date (C03), and a UID
   below the old UIDNEXT is never given to a new message (C02) *)
Lemma binding_stable b b' m m' :
  uinv b -> box_le b b' -> In m (b_msgs b) -> In m' (b_msgs b') -> m_uid m' = m_uid m ->
  m_cid m' = m_cid m /\ m_date m' = m_date m.
Proof.
  intros [Hs [Hf _]] [_ [_ Hl]] Hm Hm' He.
  destruct (Hl m' Hm') as [[m0 [Hm0 [Hu [Hc Hd]]]]|Hfresh].
  - assert (m0 = m) by (apply (sorted_uid_inj (b_msgs b)); trivial; congruence). subst m0. auto.
  - rewrite Forall_forall in Hf. specialize (Hf (m_uid m) (in_map m_uid _ _ Hm)). cbv beta in Hf. lia.
Qed.

Lemma no_uid_reuse b b' m' :
  box_le b b' -> In m' (b_msgs b') -> m_uid m' < b_next b ->
  exists m, In m (b_msgs b) /\ same_msg m m'.
Proof. intros [_ [_ Hl]] Hm' Hlt. destruct (Hl m' Hm') as [H|H]; [exact H|lia]. Qed.

Lemma max_key_fold_mono l : forall a b, a <= b -> fold_left (fun a m => Z.max a (m_key m)) l a <= fold_left (fun a m => Z.max a (m_key m)) l b.
Proof. induction l as [|m l IH]; intros a b H; cbn [fold_left]; [exact H|]. apply IH. lia. Qed.
Lemma resync_disk_empty b : b_disk (fst (resync b)) = [].
Proof. apply resync_data. Qed.

Lemma filter_none {A} (f : A -> bool) l : (forall x, In x l -> f x = false) -> filter f l = [].
Proof.
  induction l as [|x l IH]; intros H; cbn [filter]; [reflexivity|].
  rewrite (H x (or_introl eq_refl)). apply IH. intros y Hy. apply H. right; exact Hy.
Qed.

Lemma append_one b file :
  b_disk b = [] ->
  let k := max_key (b_msgs b) + 1 in
  let b3 := fst (resync (with_disk b (add_files (b_disk b) (b_msgs b) [file]))) in
  b_msgs b3 = b_msgs b ++ [{| m_key := k; m_uid := b_next b; m_cid := m_cid file; m_date := m_date file;
                              m_seqs := sadd "Recent" (m_seqs file) |}] /\
  b_next b3 = b_next b + 1 /\
  (match filter (fun x => m_key x =? k) (b_msgs b3) with x :: _ => m_uid x | [] => 0 end) = b_next b.
Proof.
  intros Hd k b3. destruct (add_exact b [file] Hd) as [S1 [S2 _]]; [discriminate|]. fold b3 in S1, S2. rewrite S1, S2.
  split; [reflexivity|]. split; [reflexivity|]. rewrite filter_app, (filter_none _ (b_msgs b)).
  - cbn [number app filter retag m_key]. fold k. rewrite Z.eqb_refl. reflexivity.
  - intros x Hx. pose proof (max_key_in _ _ Hx). unfold k. lia.
Qed.

(* C03.  [resolve] pairs the messages with their positions: p stands beside m exactly when m is the p-th message *)
Lemma in_combine_pos (ms : list msg) : forall off p m,
  In (p, m) (combine (map (fun i => Z.of_nat i + 1) (seq off (List.length ms))) ms) <->
  (Z.of_nat off + 1 <= p /\ nth_error ms (Z.to_nat (p - 1 - Z.of_nat off)) = Some m).
Proof.
  induction ms as [|x ms IH]; intros off p m; cbn [List.length seq map combine].
  - split; [intros []|]. intros [_ H]. destruct (Z.to_nat (p - 1 - Z.of_nat off)); discriminate.
  - cbn [In]. rewrite IH. split.
    + intros [H|[H1 H2]].
      * inversion H; subst. split; [lia|]. replace (Z.to_nat (Z.of_nat off + 1 - 1 - Z.of_nat off)) with O by lia. reflexivity.
      * split; [lia|]. replace (Z.to_nat (p - 1 - Z.of_nat off)) with (S (Z.to_nat (p - 1 - Z.of_nat (S off)))) by lia. exact H2.
    + intros [H1 H2]. destruct (Z.eq_dec p (Z.of_nat off + 1)) as [->|Hne].
      * left. replace (Z.to_nat (Z.of_nat off + 1 - 1 - Z.of_nat off)) with O in H2 by lia. cbn in H2. inversion H2; reflexivity.
      * right. split; [lia|].
        replace (Z.to_nat (p - 1 - Z.of_nat off)) with (S (Z.to_nat (p - 1 - Z.of_nat (S off)))) in H2 by lia. exact H2.
Qed.

Lemma resolve_uid_spec b st l :
  resolve b true st = Ok l ->
  forall p, In p l <-> exists m, 1 <= p /\ znth (b_msgs b) (p - 1) = Some m /\
                                 In (m_uid m) (denote (last_uid (b_msgs b)) st).
Proof.
  unfold resolve. destruct (forallb elt_pos st); [|discriminate]. intros H; inversion H; subst l. clear H.
  intros p. rewrite in_map_iff. split.
  - intros [[p0 m] [E Hin]]. cbn [fst] in E. subst p0. apply filter_In in Hin. destruct Hin as [Hin Hz].
    apply (in_combine_pos (b_msgs b) 0) in Hin. destruct Hin as [H1 H2]. cbn [snd] in Hz.
    exists m. split; [lia|]. split.
    + rewrite znth_nth by lia. replace (p - 1 - Z.of_nat 0) with (p - 1) in H2 by lia. exact H2.
    + unfold zmem in Hz. apply existsb_exists in Hz. destruct Hz as [u [Hu He]]. apply Z.eqb_eq in He. subst. exact Hu.
  - intros [m [H1 [H2 H3]]]. exists (p, m). split; [reflexivity|]. apply filter_In. split.
    + apply (in_combine_pos (b_msgs b) 0). split; [lia|]. rewrite znth_nth in H2 by lia.
      replace (p - 1 - Z.of_nat 0) with (p - 1) by lia. exact H2.
    + cbn [snd]. unfold zmem. apply existsb_exists. exists (m_uid m). split; [exact H3|apply Z.eqb_refl].
Qed.

Lemma resolve_seq_spec b st l : resolve b false st = Ok l -> l = denote (zlen (b_msgs b)) st.
Proof. unfold resolve. destruct (forallb (elt_ok (zlen (b_msgs b))) st); [|discriminate]. intros H; inversion H; reflexivity. Qed.

Lemma binding_stable_run ops w n b m :
  winv w -> get_box w n = Some b -> In m (b_msgs b) ->
  exists b', get_box (fst (run w ops)) n = Some b' /\
             forall m', In m' (b_msgs b') -> m_uid m' = m_uid m -> m_cid m' = m_cid m /\ m_date m' = m_date m.
Proof.
  intros Hw Hg Hm. destruct (run_le ops w n b Hg) as [b' [Hg' Hl]].
  exists b'. split; [exact Hg'|]. intros m' Hm' He.
  exact (binding_stable b b' m m' (proj2 (Hw n b Hg)) Hl Hm Hm' He).
Qed.

Lemma reachable_uinv ps pn pd ops n b :
  get_box (fst (run (init_world ps pn pd) ops)) n = Some b ->
  StronglySorted Z.lt (uids b) /\ Forall (fun u => 0 < u < b_next b) (uids b) /\ 0 < b_next b.
Proof. intros H. exact (proj2 (reachable_inv ps pn pd ops n b H)). Qed.
