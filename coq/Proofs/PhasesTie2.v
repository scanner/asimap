(* Proofs/PhasesTie2.v — the world after an atomic FETCH/STORE/SEARCH of Model/Mbox.v is the world after `arrive`
   followed at once by `execute` (Model/Phases.v): equal when the command is carried out or refused, and - when the
   message set is out of range (BAD) - equal up to the second flush of a queue that is already empty, which leaves
   every message, counter and session entry as it was. *)
From Asimap Require Import Base.Res Spec.SetSem Model.Mbox Model.Phases Proofs.MboxInv Proofs.PhasesTie.
Open Scope Z_scope.

(* what the two worlds may differ in: nothing a session or a later step can observe *)
Definition box_same (a b : mbox) : Prop :=
  b_msgs a = b_msgs b /\ b_next a = b_next b /\ b_vv a = b_vv b /\ b_disk a = b_disk b /\
  forall s, get_client a s = get_client b s.
Definition world_same (a b : world) : Prop :=
  w_vv a = w_vv b /\ forall n, match get_box a n, get_box b n with
                               | Some x, Some y => box_same x y
                               | None, None => True
                               | _, _ => False
                               end.
Lemma box_same_refl b : box_same b b.
Proof. repeat split. Qed.
Lemma world_same_refl w : world_same w w.
Proof. split; [reflexivity|]. intros n. destruct (get_box w n); [apply box_same_refl|exact I]. Qed.

Lemma clear_deliver_nil c : c_pend c = [] -> clear_pend (deliver c []) = c.
Proof. intros H. destruct c as [i e p v o]. cbn in H. subst p. reflexivity. Qed.

Lemma flush_empty_same b s c : get_client b s = Some c -> c_pend c = [] -> box_same (fst (flush b s)) b.
Proof.
  intros G P. unfold flush. rewrite G. cbn [flush1 fst]. rewrite P.
  repeat split. intros s'. rewrite get_upd_client. destruct (Z.eqb_spec s' s) as [->|_]; [|reflexivity].
  rewrite G, (clear_deliver_nil c P). reflexivity.
Qed.

Lemma world_same_set w n a b : box_same a b -> world_same (set_box w n a) (set_box w n b).
Proof.
  intros H. split; [reflexivity|]. intros n'. rewrite !get_set_box.
  destruct (String.eqb n' n); [exact H|]. destruct (get_box w n'); [apply box_same_refl|exact I].
Qed.

Theorem step_world_is_arrive_then_execute w s c :
  winv w ->
  world_same (let '(w1, _, go) := arrive w s c in if go then fst (execute w1 s c) else w1)
             (fst (step w (to_op s c))).
Proof.
  intros _. pose proof (step_vs_arrive_execute w s c) as H.
  destruct (arrive w s c) as [[w1 o1] [|]]; [|rewrite H; apply world_same_refl].
  destruct (execute w1 s c) as [w2 o2]. destruct H as [->|(n & b & cl & G & P & -> & ->)]; [apply world_same_refl|].
  apply world_same_set, (flush_empty_same b s cl G P).
Qed.
