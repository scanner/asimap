(* Proofs/FmtP.v — the formatters of Model/Fmt.v against the independent reader Spec/RespTok.v *)
From Asimap Require Import Base.Res Model.BodyAlg Model.Fmt Spec.RespTok Proofs.BodyAlgP.
From Coq Require Import NArith.
Open Scope Z_scope.

Lemma forbidden_is c : forbidden c = is_forbidden c.
Proof. reflexivity. Qed.

Lemma needs_literal_cons c t :
  needs_literal (c :: t) = false -> is_forbidden c = false /\ needs_literal t = false.
Proof. rewrite <- forbidden_is. exact (proj1 (orb_false_iff _ _)). Qed.

Lemma enc_string_literal b : needs_literal b = true -> enc_string b = literal b.
Proof. intros H. unfold enc_string. rewrite H. reflexivity. Qed.

Lemma enc_string_quoted b : needs_literal b = false -> enc_string b = quoted b.
Proof. intros H. unfold enc_string. rewrite H. reflexivity. Qed.

Lemma escape_cons c t : escape (c :: t) = esc c ++ escape t.
Proof. reflexivity. Qed.

(* the three readers of quoted text below (read_qtail, quoted_inner_ok, the automaton in StQ)
   each take esc c in one stride and then walk along escape b *)
Lemma esc_cases c :
  (esc c = [92; c] /\ is_qspecial c = true) \/
  (esc c = [c] /\ (c =? 34) = false /\ (c =? 92) = false).
Proof.
  unfold esc, is_qspecial, DQ, BSL.
  destruct ((c =? 34) || (c =? 92)) eqn:E; [left|right]; (split; [reflexivity|lia]).
Qed.

Lemma read_qtail_esc c t : is_forbidden c = false ->
  read_qtail (esc c ++ t) =
  match read_qtail t with Some (v, r) => Some (c :: v, r) | None => None end.
Proof.
  intros Hf. destruct (esc_cases c) as [[-> Hq]|[-> [H1 H2]]]; cbn [app read_qtail Z.eqb Pos.eqb].
  - rewrite Hq. reflexivity.
  - rewrite H1, H2, Hf. reflexivity.
Qed.

Lemma read_qtail_escape b rest : needs_literal b = false ->
  read_qtail (escape b ++ 34 :: rest) = Some (b, rest).
Proof.
  induction b as [|c t IH]; [reflexivity|]. intros H. apply needs_literal_cons in H as [Hc Ht].
  rewrite escape_cons, <- app_assoc, read_qtail_esc, IH by assumption. reflexivity.
Qed.

Lemma read_quoted_quoted b rest : needs_literal b = false ->
  read_quoted (quoted b ++ rest) = Some (b, rest).
Proof.
  intros H. unfold quoted, read_quoted. cbn [app]. rewrite expect_hit, <- app_assoc.
  apply read_qtail_escape, H.
Qed.

Lemma quoted_inner_ok_esc c t : is_forbidden c = false ->
  quoted_inner_ok (esc c ++ t) = quoted_inner_ok t.
Proof.
  intros Hf. destruct (esc_cases c) as [[-> Hq]|[-> [H1 H2]]]; cbn [app quoted_inner_ok Z.eqb Pos.eqb].
  - rewrite Hq. reflexivity.
  - rewrite H1, H2, Hf. reflexivity.
Qed.

Lemma quoted_inner_ok_escape b : needs_literal b = false -> quoted_inner_ok (escape b) = true.
Proof.
  induction b as [|c t IH]; [reflexivity|]. intros H. apply needs_literal_cons in H as [Hc Ht].
  rewrite escape_cons, quoted_inner_ok_esc, IH by assumption. reflexivity.
Qed.

Lemma read_string_enc b rest : read_string (enc_string b ++ rest) = Some (b, rest).
Proof.
  unfold enc_string. destruct (needs_literal b) eqn:E.
  - rewrite literal_app. cbn [read_string Z.eqb Pos.eqb].
    rewrite <- literal_app. apply read_literal_literal.
  - exact (read_quoted_quoted b rest E).
Qed.

Lemma literal_choice b rest : needs_literal b = true ->
  enc_string b = literal b /\ read_literal (literal b ++ rest) = Some (b, rest).
Proof. intros H. split; [apply enc_string_literal, H|apply read_literal_literal]. Qed.

Lemma no_raw_specials b : needs_literal b = false ->
  exists q, enc_string b = 34 :: q ++ [34] /\ quoted_inner_ok q = true.
Proof.
  intros H. exists (escape b). split; [apply enc_string_quoted, H|apply quoted_inner_ok_escape, H].
Qed.

Lemma feed_app s a : forall b,
  feed s (a ++ b) = match feed s a with Some s' => feed s' b | None => None end.
Proof.
  revert s. induction a as [|x a IH]; intros s b; [reflexivity|].
  cbn [app feed]. destruct (step s x); try reflexivity. apply IH.
Qed.

Lemma run_feed a : forall s s' l, feed s a = Some s' -> run s (a ++ l) = run s' l.
Proof.
  induction a as [|x a IH]; intros s s' l H.
  - injection H as ->. reflexivity.
  - cbn [feed] in H. cbn [app run]. destruct (step s x); try discriminate H. apply IH, H.
Qed.

Definition plain (c : Z) : bool :=
  negb ((c =? 34) || (c =? 40) || (c =? 41) || (c =? 123) || (c =? 125) ||
        (c =? 13) || (c =? 10) || (c =? 0)).

Lemma step_plain d c : plain c = true -> step (StN d) c = Next (StN d).
Proof.
  unfold plain. intros H. apply negb_true_iff in H. rewrite !orb_false_iff in H.
  destruct H as [[[[[[[H34 H40] H41] H123] H125] H13] H10] H0].
  cbn [step]. rewrite H34, H40, H41, H123, H13, H10, H0, H125. reflexivity.
Qed.

Definition atomic (p : list Z) : Prop := forallb plain p = true.

Definition balanced (p : list Z) : Prop := forall d, feed (StN d) p = Some (StN d).

Lemma balanced_nil : balanced [].
Proof. intros d. reflexivity. Qed.

Lemma balanced_app a b : balanced a -> balanced b -> balanced (a ++ b).
Proof. intros Ha Hb d. rewrite feed_app, Ha. apply Hb. Qed.

Lemma balanced_cons c p : plain c = true -> balanced p -> balanced (c :: p).
Proof. intros Hc Hp d. cbn [feed]. rewrite step_plain by exact Hc. apply Hp. Qed.

Lemma balanced_atomic p : atomic p -> balanced p.
Proof.
  unfold atomic. induction p as [|c t IH]; intros H; [apply balanced_nil|].
  apply andb_prop in H as [Hc Ht]. apply balanced_cons; [exact Hc|apply IH, Ht].
Qed.

Lemma balanced_paren p : balanced p -> balanced (paren p).
Proof.
  intros H d. unfold paren. cbn [feed step Z.eqb Pos.eqb].
  rewrite feed_app, H. reflexivity.
Qed.

Lemma balanced_join sep ps : balanced sep -> Forall balanced ps -> balanced (join sep ps).
Proof.
  intros Hs H. induction H as [|p rest Hp Hrest IH]; [apply balanced_nil|].
  destruct rest as [|q rest]; [exact Hp|].
  change (join sep (p :: q :: rest)) with (p ++ sep ++ join sep (q :: rest)).
  apply balanced_app; [exact Hp|]. apply balanced_app; [exact Hs|exact IH].
Qed.

Lemma balanced_assembly sep ps p :
  balanced sep -> Forall balanced ps -> balanced p ->
  balanced (join sep ps) /\ balanced (paren p).
Proof. intros Hs Hps Hp. split; [apply balanced_join; assumption|apply balanced_paren, Hp]. Qed.

Lemma Forall_atomic_balanced ps : Forall atomic ps -> Forall balanced ps.
Proof. apply Forall_impl, balanced_atomic. Qed.

Lemma feed_esc d c t : is_forbidden c = false -> feed (StQ d) (esc c ++ t) = feed (StQ d) t.
Proof.
  intros Hf. destruct (esc_cases c) as [[-> Hq]|[-> [H1 H2]]]; cbn [app feed step Z.eqb Pos.eqb].
  - rewrite Hq. reflexivity.
  - rewrite H1, H2, Hf. reflexivity.
Qed.

Lemma feed_escape d b l : needs_literal b = false ->
  feed (StQ d) (escape b ++ l) = feed (StQ d) l.
Proof.
  induction b as [|c t IH]; [reflexivity|]. intros H. apply needs_literal_cons in H as [Hc Ht].
  rewrite escape_cons, <- app_assoc, feed_esc, IH by assumption. reflexivity.
Qed.

Definition no_lit (b : list Z) : Prop := needs_literal b = false.

Lemma balanced_quoted b : needs_literal b = false -> balanced (quoted b).
Proof.
  intros H d. unfold quoted. cbn [feed step DQ Z.eqb Pos.eqb].
  rewrite feed_escape by exact H. reflexivity.
Qed.

Lemma feed_digits d ds l : Forall digit ds ->
  forall acc seen, seen = true \/ ds <> [] ->
  feed (StLB d acc seen) (ds ++ l) = feed (StLB d (horner acc ds) true) l.
Proof.
  induction 1 as [|b ds Hb _ IH]; intros acc seen Hs; cbn [app feed step horner].
  - destruct Hs as [->|Hs]; [reflexivity|contradiction].
  - rewrite (digit_val_digit b Hb). apply IH. left. reflexivity.
Qed.

Lemma feed_dec d n l : feed (StLB d 0%N false) (dec n ++ l) = feed (StLB d n true) l.
Proof. rewrite feed_digits, horner_dec; auto using dec_digits, dec_nonempty. Qed.

Lemma after_count_succ d k : after_count d (N.succ k) = StSK d (N.succ k).
Proof. unfold after_count. replace (N.succ k =? 0)%N with false by lia. reflexivity. Qed.

Lemma feed_skip b : forall d l, feed (after_count d (blen b)) (b ++ l) = feed (StN d) l.
Proof.
  induction b as [|x t IH]; intros d l; [reflexivity|].
  unfold blen. cbn [List.length]. rewrite Nat2N.inj_succ. fold (blen t).
  rewrite after_count_succ. cbn [app feed step]. rewrite N.pred_succ. apply IH.
Qed.

Lemma feed_literal d b l : feed (StN d) (literal b ++ l) = feed (StN d) l.
Proof.
  rewrite literal_app. cbn [feed step Z.eqb Pos.eqb].
  rewrite feed_dec. cbn [feed step digit_val Z.leb Z.compare Pos.compare Pos.compare_cont andb
                         Z.eqb Pos.eqb].
  apply feed_skip.
Qed.

Lemma balanced_literal b : balanced (literal b).
Proof. intros d. rewrite <- (app_nil_r (literal b)). apply feed_literal. Qed.

Lemma balanced_enc_string b : balanced (enc_string b).
Proof.
  unfold enc_string. destruct (needs_literal b) eqn:E; [apply balanced_literal|apply balanced_quoted, E].
Qed.

(* the database grows with each structure lemma below; beyond the balanced_* lemmas it holds only
   the Forall constructors and the unfolding of atomic and no_lit, so that `auto with bal` decides
   the constant words by evaluation *)
Create HintDb bal.
#[export] Hint Resolve balanced_nil balanced_app balanced_cons balanced_atomic balanced_paren
  balanced_join balanced_quoted balanced_literal balanced_enc_string Forall_atomic_balanced : bal.
#[export] Hint Constructors Forall : bal.
#[export] Hint Unfold atomic no_lit : bal.

Lemma balanced_enc_nstring o : balanced (enc_nstring o).
Proof. destruct o; cbn [enc_nstring]; auto with bal. Qed.

Lemma atomic_digits ds : Forall digit ds -> atomic ds.
Proof.
  unfold atomic. induction 1 as [|b ds Hb _ IH]; [reflexivity|].
  cbn [forallb]. rewrite IH. unfold plain, digit in *. lia.
Qed.

Lemma balanced_dec n : balanced (dec n).
Proof. apply balanced_atomic, atomic_digits, dec_digits. Qed.

#[export] Hint Resolve balanced_enc_nstring balanced_dec : bal.

Lemma balanced_address n m h : balanced (address n m h).
Proof. unfold address. auto 8 with bal. Qed.

Lemma balanced_addr_list l : balanced (addr_list l).
Proof.
  assert (H : Forall balanced (map (fun a => let '(n, m, h) := a in address n m h) l)).
  { apply Forall_map, Forall_forall. intros [[n m] h] _. apply balanced_address. }
  destruct l; cbn [addr_list]; auto with bal.
Qed.

#[export] Hint Resolve balanced_addr_list : bal.

Lemma balanced_envelope e : balanced (envelope e).
Proof. unfold envelope. auto 14 with bal. Qed.

Lemma balanced_param_list ps : balanced (param_list ps).
Proof.
  assert (H : Forall balanced (flat_map (fun kv => [enc_string (fst kv); enc_string (snd kv)]) ps)).
  { apply Forall_flat_map, Forall_forall. auto with bal. }
  destruct ps; cbn [param_list]; auto with bal.
Qed.

Lemma balanced_list_head word attrs :
  atomic word -> Forall atomic attrs -> balanced (list_head word attrs).
Proof. intros Hw Ha. unfold list_head. auto 8 with bal. Qed.

#[export] Hint Resolve balanced_list_head : bal.

Lemma balanced_fetch_part name value : atomic name -> balanced value -> balanced (fetch_part name value).
Proof. intros Hn Hv. unfold fetch_part. auto with bal. Qed.

(* the automaton passes over a balanced part of a response; a line is balanced parts and then
   CRLF at depth 0, on which it stops: so `rewrite !run_balanced` walks along a line, and what
   remains is evaluation on CRLF *)
Lemma run_balanced p l rest : balanced p ->
  run (StN 0) ((p ++ l) ++ rest) = run (StN 0) (l ++ rest).
Proof. intros H. rewrite <- app_assoc. apply run_feed, H. Qed.

Lemma list_line_complete attrs name ci rest :
  Forall atomic attrs -> Forall no_lit ci ->
  run (StN 0) (list_line attrs name ci ++ rest) = Some rest.
Proof.
  intros Ha Hc. assert (Hq : Forall balanced (map quoted ci)).
  { apply Forall_map. eapply Forall_impl; [|exact Hc]. exact balanced_quoted. }
  unfold list_line. destruct ci; rewrite !run_balanced by auto 10 with bal; reflexivity.
Qed.

Lemma lsub_line_complete attrs name rest :
  Forall atomic attrs -> run (StN 0) (lsub_line attrs name ++ rest) = Some rest.
Proof. intros Ha. unfold lsub_line. rewrite !run_balanced by auto with bal. reflexivity. Qed.

Lemma status_line_complete name atts rest :
  Forall (fun a => atomic (fst a)) atts ->
  run (StN 0) (status_line name atts ++ rest) = Some rest.
Proof.
  intros Ha. assert (H : Forall balanced (map (fun a => fst a ++ [SP] ++ dec (snd a)) atts)).
  { apply Forall_map. eapply Forall_impl; [|exact Ha]. cbv beta. auto with bal. }
  unfold status_line. rewrite !run_balanced by auto with bal. reflexivity.
Qed.

Lemma search_line_complete nums rest : run (StN 0) (search_line nums ++ rest) = Some rest.
Proof.
  assert (H : Forall balanced (map dec nums)) by (apply Forall_map, Forall_forall; auto with bal).
  unfold search_line. rewrite !run_balanced by auto with bal. reflexivity.
Qed.

Lemma fetch_line_complete idx parts rest :
  Forall balanced parts -> run (StN 0) (fetch_line idx parts ++ rest) = Some rest.
Proof. intros Hp. unfold fetch_line. rewrite !run_balanced by auto with bal. reflexivity. Qed.

Definition no_forbidden (l : list Z) : Prop := forallb (fun c => negb (is_forbidden c)) l = true.

Definition no_nul (l : list Z) : Prop := forallb (fun c => negb (c =? 0)) l = true.

(* the equation is a premise so that a line written a ++ b ++ ... ++ CRLF need not be
   re-bracketed before the lemma applies *)
Lemma read_text_line_ok t l rest : no_forbidden t -> l = t ++ CRLF ->
  read_text_line (l ++ rest) = Some (t, rest).
Proof.
  unfold no_forbidden. intros H ->. induction t as [|c t IH]; [reflexivity|].
  apply andb_prop in H as [Hc Ht]. cbn [app read_text_line]. rewrite (IH Ht).
  unfold is_forbidden in Hc. replace (c =? 13) with false by lia.
  replace ((c =? 10) || (c =? 0)) with false by lia. reflexivity.
Qed.

Lemma no_forbidden_app a b : no_forbidden a -> no_forbidden b -> no_forbidden (a ++ b).
Proof. unfold no_forbidden. intros Ha Hb. rewrite forallb_app, Ha, Hb. reflexivity. Qed.

Lemma clean_no_forbidden t : no_forbidden (clean_text t).
Proof.
  unfold no_forbidden, clean_text. induction t as [|c t IH]; [reflexivity|].
  cbn [map forallb]. rewrite IH, andb_true_r, (forbidden_is c).
  destruct (is_forbidden c) eqn:E; [reflexivity|rewrite E; reflexivity].
Qed.

Lemma clean_id t : no_forbidden t -> clean_text t = t.
Proof.
  unfold no_forbidden, clean_text. induction t as [|c t IH]; intros H; [reflexivity|].
  apply andb_prop in H as [Hc Ht]. apply negb_true_iff in Hc.
  cbn [map]. rewrite (forbidden_is c), Hc, IH by exact Ht. reflexivity.
Qed.

Lemma tagged_line_complete tag st text rest : no_forbidden tag -> no_forbidden st ->
  read_text_line (tagged_line tag st text ++ rest) =
  Some (tag ++ [SP] ++ st ++ [SP] ++ clean_text text, rest).
Proof.
  intros Ht Hs. apply read_text_line_ok.
  - repeat apply no_forbidden_app; try assumption; try reflexivity. apply clean_no_forbidden.
  - unfold tagged_line. now rewrite <- !app_assoc.
Qed.

(* the exception arm: what is not white space and not NUL is not CR or LF either *)
Lemma collapse_no_forbidden l : forall a b, no_nul l -> no_forbidden (collapse a b l).
Proof.
  unfold no_nul. induction l as [|c t IH]; intros a b H; [reflexivity|].
  apply andb_prop in H as [Hc Ht]. cbn [collapse]. destruct (is_ws c) eqn:W; [apply IH, Ht|].
  assert (Hf : negb (is_forbidden c) = true) by (unfold is_forbidden; unfold is_ws in W; lia).
  apply no_forbidden_app; [|apply IH, Ht].
  unfold no_forbidden. destruct (a && b); cbn [forallb]; rewrite Hf; reflexivity.
Qed.

Lemma exc_line_complete tag text rest : no_forbidden tag -> no_nul text ->
  read_text_line (exc_line tag text ++ rest) =
  Some (tag ++ [SP] ++ EXC_PREFIX ++ ws_collapse text, rest).
Proof.
  intros Ht Hn. apply read_text_line_ok.
  - repeat apply no_forbidden_app; try assumption; try reflexivity.
    apply collapse_no_forbidden, Hn.
  - unfold exc_line. now rewrite <- !app_assoc.
Qed.

(* the formatters of the server without the patches fixes/C07-*.patch (the *_old of Model/Fmt.v) do
   not have these properties *)
Lemma refuted_old_quote :
  exists b, needs_literal b = false /\ read_string (enc_string_old b) <> Some (b, []).
Proof. exists [97; 34; 98]. split; [reflexivity|]. vm_compute. discriminate. Qed.

Lemma refuted_old_list_line :
  exists name, needs_literal name = false /\ run (StN 0) (list_line_old [] name) = None.
Proof. exists [97; 34; 98]. split; reflexivity. Qed.

Lemma refuted_old_nocrlf :
  exists tag st text, no_forbidden tag /\ no_forbidden st /\ no_forbidden text /\
    read_text_line (tagged_line_old_nocrlf tag st text) = None.
Proof. exists [116], [66; 65; 68], [120]. repeat split. Qed.
