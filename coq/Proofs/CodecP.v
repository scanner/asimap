(* Proofs/CodecP.v — expand (compact l) = l for every strictly ascending list (C12). *)
From Asimap Require Import Base.Res Model.Codec.
From Coq Require Import Sorting.Sorted.
Open Scope Z_scope.

Lemma py_range_snoc a b : a <= b -> py_range a (b + 1) = py_range a b ++ [b].
Proof.
  intros H. unfold py_range. replace (Z.to_nat (b + 1 - a)) with (S (Z.to_nat (b - a))) by lia.
  rewrite seq_S, map_app. cbn [map]. f_equal. f_equal. lia.
Qed.
Lemma py_range_one a : py_range a (a + 1) = [a].
Proof. unfold py_range. replace (Z.to_nat (a + 1 - a)) with 1%nat by lia. cbn [seq map]. f_equal. lia. Qed.

Lemma flat_compact_aux l : forall start prev, start <= prev ->
  flat_map (fun r => py_range (fst r) (snd r + 1)) (compact_aux l start prev) = py_range start (prev + 1) ++ l.
Proof.
  induction l as [|x l IH]; intros start prev H; cbn [compact_aux].
  - cbn [flat_map fst snd]. rewrite !app_nil_r. reflexivity.
  - destruct (x =? prev + 1) eqn:E.
    + apply Z.eqb_eq in E. subst x. rewrite IH by lia. rewrite (py_range_snoc start (prev + 1)) by lia.
      rewrite <- app_assoc. reflexivity.
    + cbn [flat_map fst snd]. rewrite IH by lia. rewrite py_range_one. reflexivity.
Qed.

Lemma flat_compact l : flat_map (fun r => py_range (fst r) (snd r + 1)) (compact_runs l) = l.
Proof.
  destruct l as [|x l]; [reflexivity|]. unfold compact_runs. rewrite flat_compact_aux by lia. rewrite py_range_one. reflexivity.
Qed.

Lemma sorted_set_id l : StronglySorted Z.lt l -> sorted_set l = l.
Proof.
  intros H. apply sorted_ext; [apply sorted_set_sorted|exact H|]. intros n. apply in_sorted_set.
Qed.

Theorem expand_compact l : StronglySorted Z.lt l -> expand_runs (compact_runs l) = l.
Proof. intros H. unfold expand_runs. rewrite flat_compact. apply sorted_set_id. exact H. Qed.

Lemma compact_aux_starts (P : Z -> Prop) l : forall start prev, P start -> start <= prev -> Forall P l ->
  Forall (fun r => P (fst r) /\ fst r <= snd r) (compact_aux l start prev).
Proof.
  induction l as [|x l IH]; intros start prev Hs Hle Hl; cbn [compact_aux].
  - repeat constructor; assumption.
  - pose proof (Forall_inv Hl) as Hx. pose proof (Forall_inv_tail Hl) as Hl'.
    destruct (Z.eqb_spec x (prev + 1)) as [E|_]; [apply IH; [exact Hs|lia|exact Hl']|].
    constructor; [split; assumption|apply IH; [exact Hx|lia|exact Hl']].
Qed.
Lemma compact_runs_starts (P : Z -> Prop) l : Forall P l ->
  Forall (fun r => P (fst r) /\ fst r <= snd r) (compact_runs l).
Proof.
  destruct l as [|x l]; [constructor|]. intros H.
  apply compact_aux_starts; [exact (Forall_inv H)|lia|exact (Forall_inv_tail H)].
Qed.
Theorem compact_wf l : Forall (fun r => fst r <= snd r) (compact_runs l).
Proof.
  eapply Forall_impl; [|apply (compact_runs_starts (fun _ => True)), Forall_forall; trivial].
  intros r H. apply H.
Qed.
