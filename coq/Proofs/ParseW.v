(* Proofs/ParseW.v — what the parser model accepts is well-formed: every value it produces satisfies the
   `*_ok` predicate of Spec/Grammar.v for its position (so that the AST is the parse of its own sentences).
   Model/Lex.v and Model/Path.v each write out os.path.normpath; normpath_bridge says that the two are the same
   function, and what is needed of normpath is then C09's (Proofs/PathP.v). *)
From Asimap Require Import Base.Res Base.Bytes Model.Lex Spec.Grammar Model.ParseM Proofs.LexP Proofs.ParseP Proofs.ParseT.
From Asimap Require Model.Path Proofs.PathP.
From Coq Require Import Lia ZArith List Bool.
Import ListNotations.
Open Scope Z_scope.

Lemma beq_str_eqb a : forall b, beq a b = Path.str_eqb a b.
Proof. induction a as [|x a IH]; intros [|y b]; cbn; try reflexivity; try (rewrite IH; reflexivity). Qed.

Lemma split_on_slash s : split_on 47 s = Path.split_slash s.
Proof.
  induction s as [|c s IH]; cbn [split_on Path.split_slash]; [reflexivity|].
  unfold Path.SLASH. rewrite IH. reflexivity.
Qed.

Lemma norm_step_np b acc c : norm_step b acc c = Path.np_step b acc c.
Proof.
  unfold norm_step, Path.np_step, Path.c_empty, Path.c_dot, Path.c_dotdot, dotdot, Path.s_dot, Path.s_dotdot, Path.DOT.
  destruct c as [|x c]; [reflexivity|]. destruct acc as [|t acc]; reflexivity.
Qed.

Lemma fold_norm_np b cs : forall acc, fold_left (norm_step b) cs acc = fold_left (Path.np_step b) cs acc.
Proof. induction cs as [|c cs IH]; intros acc; cbn [fold_left]; [reflexivity|]. rewrite norm_step_np. auto. Qed.

Lemma initial_slashes_same p : initial_slashes p = Path.initial_slashes p.
Proof.
  unfold initial_slashes, Path.initial_slashes, Path.SLASH. cbn [Path.startswith].
  destruct p as [|a [|b [|c t]]]; cbn [Path.startswith]; try reflexivity.
  - destruct (a =? 47); reflexivity.
  - destruct (a =? 47), (b =? 47); reflexivity.
  - destruct (a =? 47), (b =? 47), (c =? 47); reflexivity.
Qed.

Lemma normpath_bridge s : normpath s = Path.normpath s.
Proof.
  unfold normpath, Path.normpath. destruct s as [|c s]; [reflexivity|].
  rewrite initial_slashes_same. unfold Path.np_comps, Path.or_dot, Path.s_dot, Path.DOT, Path.SLASH.
  rewrite split_on_slash, fold_norm_np. reflexivity.
Qed.

Lemma normpath_idem s : normpath (normpath s) = normpath s.
Proof. rewrite !normpath_bridge. apply PathP.normpath_idempotent. Qed.

Lemma normpath_nonempty s : normpath s <> [].
Proof. rewrite normpath_bridge. apply PathP.normpath_nonempty. Qed.

Lemma normpath_len x : x <> [] -> (List.length (normpath x) <= List.length x)%nat.
Proof.
  intros Hne. rewrite normpath_bridge. pose proof (PathP.normpath_length x) as H.
  destruct x; [contradiction|cbn [List.length] in *; lia].
Qed.

Lemma dv_app z a b : dv z (a ++ b) = dv (dv z a) b.
Proof. unfold dv. apply fold_left_app. Qed.

Lemma dv_bounds ds : forallb is_digit ds = true -> forall z, 0 <= z ->
  z * 10 ^ Z.of_nat (List.length ds) <= dv z ds < (z + 1) * 10 ^ Z.of_nat (List.length ds).
Proof.
  induction ds as [|d ds IH]; intros Hd z Hz.
  - cbn. lia.
  - cbn [forallb] in Hd. apply andb_true_iff in Hd. destruct Hd as [H1 H2].
    pose proof (digit_val_range d H1) as Hr.
    change (dv z (d :: ds)) with (dv (z * 10 + digit_val d) ds).
    specialize (IH H2 (z * 10 + digit_val d) ltac:(lia)).
    cbn [List.length]. rewrite Nat2Z.inj_succ, Z.pow_succ_r by lia.
    set (P := 10 ^ Z.of_nat (List.length ds)) in *. assert (0 < P) by (apply Z.pow_pos_nonneg; lia). nia.
Qed.

Lemma digits_fuel_len fuel : forall n acc k, 0 <= n < 10 ^ Z.of_nat k -> (1 <= k)%nat ->
  (List.length (digits_fuel fuel n acc) <= k + List.length acc)%nat.
Proof.
  induction fuel as [|f IH]; intros n acc k Hn Hk; cbn [digits_fuel]; [lia|].
  destruct (Z.ltb_spec n 10) as [Hlt|Hge]; [cbn [List.length]; lia|].
  destruct k as [|k]; [lia|]. destruct k as [|k]; [cbn in Hn; lia|].
  specialize (IH (n / 10) ((48 + n mod 10) :: acc) (S k)).
  cbn [List.length] in IH. rewrite (Nat2Z.inj_succ (S k)), Z.pow_succ_r in Hn by lia.
  assert (0 <= n / 10 < 10 ^ Z.of_nat (S k)) by div_lia.
  specialize (IH H ltac:(lia)). lia.
Qed.

Lemma r_number_len n k : 0 <= n < 10 ^ k -> 1 <= k -> Z.of_nat (List.length (r_number n)) <= k.
Proof.
  intros Hn Hk. pose proof (digits_fuel_len (S (Z.to_nat (Z.log2 n))) n [] (Z.to_nat k)) as H.
  rewrite Z2Nat.id in H by lia. specialize (H Hn ltac:(lia)). unfold r_number. cbn [List.length] in H. lia.
Qed.

(* the bound on the size of the input, kept folded so that lia and cbn never expand it *)
Definition BIG : Z := 10 ^ 4300.
Arguments BIG : simpl never.

Lemma num_ok_small n : 0 <= n < BIG -> num_ok n = true.
Proof.
  intros Hn. unfold num_ok, int_ok, MAX_STR_DIGITS. apply andb_true_iff. split; [apply Z.leb_le; lia|].
  apply Z.leb_le, (r_number_len n 4300 Hn). discriminate.
Qed.

Lemma num_ok_digits ds : ds <> [] -> forallb is_digit ds = true -> int_ok ds = true -> num_ok (digits_val ds) = true.
Proof.
  intros Hne Hd Hi. rewrite digits_val_dv. pose proof (dv_bounds ds Hd 0 ltac:(lia)) as Hb.
  unfold num_ok. apply andb_true_iff. split; [apply Z.leb_le; lia|].
  unfold int_ok, MAX_STR_DIGITS in *. apply Z.leb_le in Hi. apply Z.leb_le.
  assert (Hk : 1 <= Z.of_nat (List.length ds)) by (destruct ds; [contradiction|cbn [List.length]; lia]).
  pose proof (r_number_len (dv 0 ds) (Z.of_nat (List.length ds)) ltac:(lia) Hk). lia.
Qed.

Lemma p_string_value_len s v r : p_string s = ROk v r -> (List.length v <= List.length s)%nat.
Proof. intros E. pose proof (p_string_len s) as H. rewrite E in H. lia. Qed.
Lemma tok_or_string_value_len p s v r : tok_or_string p s = ROk v r -> (List.length v <= List.length s)%nat.
Proof.
  unfold tok_or_string, try_many1. pose proof (span_lengths p s) as Hl. destruct (span p s) as [a r0]. cbn in Hl.
  destruct a as [|c a]; [apply p_string_value_len|]. intros E. inversion E; subst. lia.
Qed.

Lemma p_number_num_ok s n r : p_number s = ROk n r -> num_ok n = true.
Proof.
  intros E. unfold p_number, pbind, p_many1 in E. pose proof (span_all is_digit s) as H.
  destruct (span is_digit s) as [ds r0]. cbn in H. destruct ds as [|d ds]; [discriminate|].
  unfold p_int in E. destruct (int_ok (d :: ds)) eqn:Ei; [|discriminate]. inversion E; subst.
  apply num_ok_digits; [discriminate|exact H|exact Ei].
Qed.

Section Outputs.
Variable N : nat.
Hypothesis HN : Z.of_nat N < BIG.

(* the bound on the rest: so that the parser that runs next is again within N *)
Definition okb {A} (q : A -> bool) (p : parser A) : Prop :=
  forall s a r, (List.length s <= N)%nat -> p s = ROk a r -> q a = true /\ (List.length r <= List.length s)%nat.

Lemma ok_good {A} (q : A -> bool) p :
  good p -> (forall s a r, (List.length s <= N)%nat -> p s = ROk a r -> q a = true) -> okb q p.
Proof. intros Hg H s a r Hs E. split; [exact (H s a r Hs E)|]. specialize (Hg s). rewrite E in Hg. exact Hg. Qed.

Lemma okb_sat {A} (q : A -> bool) p :
  okb q p <-> forall s, (List.length s <= N)%nat -> res_sat q (fun _ => True) s (p s).
Proof.
  split.
  - intros H s Hs. destruct (p s) as [a r| |k] eqn:E; cbn; [exact (H s a r Hs E)|exact I|exact I].
  - intros H s a r Hs E. specialize (H s Hs). rewrite E in H. exact H.
Qed.
Lemma ok_ret {A} (q : A -> bool) a : q a = true -> okb q (pret a).
Proof. intros H s a' r _ E. inversion E; subst. split; [exact H|apply Nat.le_refl]. Qed.
Lemma ok_fail {A} (q : A -> bool) : okb q pfail.
Proof. intros s a r _ E. discriminate E. Qed.
Lemma ok_weaken {A} (q q' : A -> bool) p : (forall a, q a = true -> q' a = true) -> okb q p -> okb q' p.
Proof. intros H Hp s a r Hs E. destruct (Hp s a r Hs E) as [Ha Hr]. split; [apply H, Ha|exact Hr]. Qed.
Lemma ok_bind {A B} (q1 : A -> bool) (q2 : B -> bool) (p : parser A) (f : A -> parser B) :
  okb q1 p -> (forall a, q1 a = true -> okb q2 (f a)) -> okb q2 (pbind p f).
Proof.
  intros H1 H2 s b r2 Hs E. unfold pbind in E. destruct (p s) as [a r| |k] eqn:Ep; try discriminate.
  destruct (H1 s a r Hs Ep) as [Ha Hr]. destruct (H2 a Ha r b r2 ltac:(lia) E) as [Hb Hr2]. split; [exact Hb|lia].
Qed.
Lemma ok_skip {A B} (q : B -> bool) (p : parser A) (f : A -> parser B) :
  good p -> (forall a, okb q (f a)) -> okb q (pbind p f).
Proof.
  intros Hg Hf. apply (ok_bind (fun _ => true)); [apply (ok_good _ p Hg); reflexivity|intros a _; apply Hf].
Qed.
Lemma ok_lit {B} (q : B -> bool) k (f : unit -> parser B) : okb q (f tt) -> okb q (pbind (p_lit k) f).
Proof. intros Hf. apply ok_skip; [apply good_p_lit|intros []; exact Hf]. Qed.
Lemma ok_pmap {A B} (q : A -> bool) (q' : B -> bool) (g : A -> B) p :
  okb q p -> (forall a, q a = true -> q' (g a) = true) -> okb q' (pmap g p).
Proof. intros Hp Hg. apply (ok_bind q); [exact Hp|intros a Ha; apply ok_ret, Hg, Ha]. Qed.
Lemma ok_sp_arg {A B} (q : A -> bool) (q' : B -> bool) p (g : A -> B) :
  okb q p -> (forall a, q a = true -> q' (g a) = true) -> okb q' (p_sp ;;; a <- p ;; pret (g a))%parser.
Proof. intros Hp Hg. apply ok_lit. exact (ok_pmap q q' g p Hp Hg). Qed.
Lemma ok_sp_arg2 {A B C} (q1 : A -> bool) (q2 : B -> bool) (q' : C -> bool) p1 p2 (g : A -> B -> C) :
  okb q1 p1 -> okb q2 p2 -> (forall a b, q1 a = true -> q2 b = true -> q' (g a b) = true) ->
  okb q' (p_sp ;;; a <- p1 ;; p_sp ;;; b <- p2 ;; pret (g a b))%parser.
Proof.
  intros H1 H2 Hg. apply ok_lit. apply (ok_bind q1); [exact H1|intros a Ha]. apply (ok_sp_arg q2); [exact H2|]. intros b. apply Hg, Ha.
Qed.
Lemma ok_if {A} (q : A -> bool) (b : list Z -> bool) p p' : okb q p -> okb q p' -> okb q (fun s => if b s then p s else p' s).
Proof. intros H1 H2 s a r Hs E. destruct (b s); [eapply H1|eapply H2]; eassumption. Qed.
Lemma ok_try {A} (q : A -> bool) k (p p' : parser A) : okb q p -> okb q p' ->
  okb q (fun s => match try_lit k s with Some r => p r | None => p' s end).
Proof.
  intros H1 H2 s a r Hs E. unfold try_lit in E. destruct (match_ci k s) as [r0|] eqn:Em; [|exact (H2 s a r Hs E)].
  apply match_ci_len in Em. destruct (H1 r0 a r ltac:(lia) E) as [Ha Hr]. split; [exact Ha|lia].
Qed.

Lemma ok_try_ret {A} (q : A -> bool) k a (p' : parser A) : q a = true -> okb q p' ->
  okb q (fun s => match try_lit k s with Some r => ROk a r | None => p' s end).
Proof. intros Ha. apply (ok_try q k (pret a)), ok_ret, Ha. Qed.

Lemma ok_try_many1 {A} (q : A -> bool) c (k : list Z -> parser A) (p' : parser A) : (forall tok, okb q (k tok)) -> okb q p' ->
  okb q (fun s => match try_many1 c s with Some (tok, r) => k tok r | None => p' s end).
Proof.
  intros Hk Hp' s a r Hs E. unfold try_many1 in E. pose proof (span_lengths c s) as Hl. destruct (span c s) as [tok r0]. cbn in Hl.
  destruct tok; [exact (Hp' s a r Hs E)|]. destruct (Hk _ r0 a r ltac:(lia) E) as [Ha Hr]. split; [exact Ha|lia].
Qed.

Lemma ok_many1 p : okb (nonempty_all p) (p_many1 p).
Proof.
  apply ok_good; [apply good_many1|].
  intros s a r _ E. unfold p_many1 in E. pose proof (span_all p s) as H. destruct (span p s) as [a0 r0]. cbn in H.
  destruct a0 as [|c a0]; [discriminate|]. inversion E; subst. exact H.
Qed.

Lemma ok_number : okb num_ok p_number.
Proof. apply ok_good; [apply good_number|]. intros s n r _ E. exact (p_number_num_ok s n r E). Qed.

Lemma ok_atom : okb is_atom p_atom.
Proof. exact (ok_many1 atom_char). Qed.

(* flag_ok (92 :: a) computes to is_atom a; an atom does not start with a backslash *)
Lemma ok_flag : okb flag_ok p_flag.
Proof.
  apply (ok_try flag_ok [92]).
  - eapply ok_pmap; [apply ok_atom|]. intros a Ha. exact Ha.
  - eapply ok_weaken; [|apply ok_atom]. intros f Ha. unfold flag_ok. destruct f as [|c a]; [discriminate|].
    destruct (Z.eqb_spec c 92) as [->|Hne]; [|exact Ha]. cbn in Ha. discriminate.
Qed.

(* A string the parser returns is a piece of its input, so no longer than N; the predicates of Spec/Grammar.v
   on strings, and on what mailbox_norm, pattern_norm and lower_s make of them, follow from that alone. *)
Definition short (v : list Z) : bool := (List.length v <=? N)%nat.

Lemma str_ok_len v : (List.length v <= N)%nat -> str_ok v = true.
Proof. intros H. unfold str_ok. apply num_ok_small. lia. Qed.
Lemma short_str_ok v : short v = true -> str_ok v = true.
Proof. intros H. apply str_ok_len, Nat.leb_le, H. Qed.

Lemma ok_string : okb str_ok p_string.
Proof. apply ok_good; [apply good_string|]. intros s v r Hs E. apply str_ok_len. apply p_string_value_len in E. lia. Qed.

Lemma ok_tok_or_string p : okb short (tok_or_string p).
Proof.
  apply ok_good; [apply good_tok_or_string|].
  intros s v r Hs E. apply Nat.leb_le. apply tok_or_string_value_len in E. lia.
Qed.
Lemma ok_astring : okb str_ok p_astring.
Proof. exact (ok_weaken _ _ _ short_str_ok (ok_tok_or_string atom_char)). Qed.
Lemma ok_list_mailbox : okb str_ok p_list_mailbox.
Proof. exact (ok_weaken _ _ _ short_str_ok (ok_tok_or_string list_char)). Qed.

Lemma mailbox_norm_mailbox_ok x : (List.length x <= N)%nat -> mailbox_ok (mailbox_norm x) = true.
Proof.
  intros Hx. unfold mailbox_norm. set (y := match x with [] => [] | _ => normpath x end).
  destruct (beq (lower_s y) inbox) eqn:E.
  - reflexivity.
  - unfold mailbox_ok. apply andb_true_iff. split.
    + assert (Hy : mailbox_norm y = y).
      { destruct x as [|c x']; [reflexivity|]. unfold y in *. cbv iota in E. cbv iota.
        pose proof (normpath_nonempty (c :: x')) as Hne.
        destruct (normpath (c :: x')) as [|c1 y1] eqn:En; [contradiction|].
        assert (Hid : normpath (c1 :: y1) = c1 :: y1) by (rewrite <- En; apply normpath_idem).
        unfold mailbox_norm. rewrite Hid, E. reflexivity. }
      rewrite Hy. apply beq_refl.
    + apply str_ok_len. unfold y. destruct x as [|c x']; [cbn; lia|].
      pose proof (normpath_len (c :: x') ltac:(discriminate)). lia.
Qed.
Lemma ok_mailbox : okb mailbox_ok p_mailbox.
Proof. apply (ok_pmap short); [exact (ok_tok_or_string atom_char)|]. intros x Hx. apply mailbox_norm_mailbox_ok, Nat.leb_le, Hx. Qed.

Lemma lower_s_idem s : lower_s (lower_s s) = lower_s s.
Proof. unfold lower_s. rewrite map_map. apply map_ext. apply py_lower_idem. Qed.

Lemma pattern_norm_pattern_ok p : (List.length p <= N)%nat -> pattern_ok (pattern_norm p) = true.
Proof.
  intros Hp. unfold pattern_norm. destruct (beq (lower_s p) inbox) eqn:E.
  - reflexivity.
  - unfold pattern_ok, pattern_norm. rewrite E, beq_refl. apply str_ok_len. exact Hp.
Qed.
Lemma ok_pattern : okb pattern_ok p_list_mailbox_pattern.
Proof. apply (ok_pmap short); [exact (ok_tok_or_string list_char)|]. intros x Hx. apply pattern_norm_pattern_ok, Nat.leb_le, Hx. Qed.

Lemma lowered_ok_lower v : (List.length v <= N)%nat -> lowered_ok (lower_s v) = true.
Proof.
  intros Hv. unfold lowered_ok. rewrite lower_s_idem, beq_refl. apply str_ok_len. unfold lower_s. rewrite map_length. exact Hv.
Qed.
Lemma ok_lower_astring : okb lowered_ok p_lower_astring.
Proof. apply (ok_pmap short); [exact (ok_tok_or_string atom_char)|]. intros x Hx. apply lowered_ok_lower, Nat.leb_le, Hx. Qed.

Lemma seq_atom_val_satom_ok piece a : seq_atom_ok piece = true -> seq_atom_val piece = ROk a [] -> satom_ok a = true.
Proof.
  unfold seq_atom_ok, seq_atom_val. destruct piece as [|c p]; [discriminate|]. intros H.
  destruct (beq (c :: p) [42]) eqn:E; [intros X; inversion X; reflexivity|].
  rewrite orb_false_r in H. destruct (int_ok (c :: p)) eqn:Ei; [|discriminate].
  intros X. inversion X; subst. cbn [satom_ok]. apply num_ok_digits; [discriminate|exact H|exact Ei].
Qed.
Lemma seq_atom_val_rest piece a r : seq_atom_val piece = ROk a r -> r = [].
Proof. unfold seq_atom_val. destruct (beq piece [42]); [|destruct (int_ok piece)]; intros X; inversion X; reflexivity. Qed.

Lemma seq_elt_selt_ok piece e r : seq_elt piece = ROk e r -> selt_ok e = true.
Proof.
  unfold seq_elt. destruct (seq_atom_ok piece) eqn:Eo.
  - destruct (seq_atom_val piece) as [a r0| |k] eqn:Ev; try discriminate.
    pose proof (seq_atom_val_rest _ _ _ Ev); subst r0. pose proof (seq_atom_val_satom_ok _ _ Eo Ev) as Ha.
    destruct a; intros X; inversion X; subst; exact Ha.
  - destruct (split_on 58 piece) as [|a [|b [|c l]]]; try discriminate.
    destruct (seq_atom_ok a && seq_atom_ok b) eqn:Eab; [|discriminate].
    apply andb_true_iff in Eab. destruct Eab as [Ea Eb].
    destruct (seq_atom_val a) as [x r0| |k] eqn:Eva; try discriminate.
    destruct (seq_atom_val b) as [y r1| |k] eqn:Evb; try discriminate.
    pose proof (seq_atom_val_rest _ _ _ Eva); subst r0. pose proof (seq_atom_val_rest _ _ _ Evb); subst r1.
    intros X. inversion X; subst. cbn [selt_ok]. rewrite (seq_atom_val_satom_ok _ _ Ea Eva), (seq_atom_val_satom_ok _ _ Eb Evb). reflexivity.
Qed.
Lemma seq_elts_selt_ok pieces : forall l r, seq_elts pieces = ROk l r ->
  forallb selt_ok l = true /\ List.length l = List.length pieces.
Proof.
  induction pieces as [|p ps IH]; intros l r E; cbn [seq_elts] in E; [inversion E; split; reflexivity|].
  destruct (seq_elt p) as [e r0| |k] eqn:Ee; try discriminate.
  destruct (seq_elts ps) as [es r1| |k] eqn:Es; try discriminate. inversion E; subst.
  destruct (IH es r1 eq_refl) as [H1 H2]. cbn [forallb List.length]. rewrite (seq_elt_selt_ok _ _ _ Ee), H1, H2. split; reflexivity.
Qed.
Lemma split_on_nonempty sep s : split_on sep s <> [].
Proof.
  induction s as [|c s IH]; cbn [split_on]; [discriminate|]. destruct (c =? sep); [discriminate|].
  destruct (split_on sep s); [contradiction|discriminate].
Qed.
Lemma ok_msg_set : okb set_ok p_msg_set.
Proof.
  apply ok_good; [apply good_msg_set|].
  intros s l r _ E. unfold p_msg_set in E. destruct (span msgset_char s) as [txt r0]. destruct txt as [|c txt]; [discriminate|].
  destruct (seq_elts (split_on 44 (c :: txt))) as [l0 r1| |k] eqn:Es; try discriminate. inversion E; subst.
  destruct (seq_elts_selt_ok _ _ _ Es) as [H1 H2]. unfold set_ok. destruct l as [|e l]; [|exact H1].
  pose proof (split_on_nonempty 44 (c :: txt)). destruct (split_on 44 (c :: txt)); [contradiction|discriminate H2].
Qed.

Lemma ok_date : okb date_wf p_date.
Proof.
  apply ok_good; [apply good_date|].
  intros s [[y m] d] r _ E. unfold p_date in E. destruct (scan_date s) as [[[[d' m'] y'] r0]|] eqn:Es; [|discriminate].
  destruct (date_ok y' m' d') eqn:Ed; [|discriminate]. inversion E; subst. apply scan_date_inv in Es.
  unfold date_wf. lia.
Qed.

(* the offset is a whole number of minutes by construction; its size is what p_date_time checks *)
Lemma ok_date_time : okb date_time_wf p_date_time.
Proof.
  apply ok_good; [apply good_date_time|].
  intros s t r _ E. unfold p_date_time in E.
  destruct (scan_date_time s) as [[[[[[[[[[d m] y] h] mi] sec] neg] zh] zm] r0]|] eqn:Es; [|discriminate].
  apply scan_date_time_inv in Es. destruct Es as (_ & Hm & Hy & Hh & Hmi & Hs & Hzh & Hzm).
  match type of E with (if ?c then _ else _) = _ => destruct c eqn:C end; [|discriminate]. inversion E; subst. clear E.
  assert (Hy' : 100 <= fix_year y) by (unfold fix_year; destruct (Z.ltb_spec y 100); [destruct (68 <? y)|]; lia).
  assert (Hoff : (zh * 3600 + zm * 60) mod 60 = 0) by (clear; div_lia).
  unfold date_time_wf. destruct neg; [rewrite Z.mod_opp_l_z by (discriminate || exact Hoff)|rewrite Hoff]; lia.
Qed.

Lemma ok_paren_list {A} (q : A -> bool) (elem : parser A) : okb q elem -> okb (forallb q) (p_paren_list_of elem).
Proof.
  intros Hq. apply okb_sat. intros s Hs. apply paren_list_of_sat. intros s' H. apply okb_sat; [exact Hq|lia].
Qed.
Lemma ok_list_of {A} (q : A -> bool) (elem : parser A) : okb q elem -> okb (nonempty_all q) (p_list_of elem).
Proof.
  intros Hq. apply okb_sat. intros s Hs. apply list_loop_sat; [apply Nat.lt_succ_diag_r|]. intros s' H. apply okb_sat; [exact Hq|lia].
Qed.

Lemma first_lit_in {A} (tbl : list (list Z * A)) s a r : first_lit tbl s = Some (a, r) -> In a (map snd tbl).
Proof.
  induction tbl as [|[k b] tbl IH]; cbn [first_lit]; [discriminate|].
  destruct (try_lit k s); [intros H; inversion H; subst; left; reflexivity|]. intros H. right. apply IH. exact H.
Qed.

Lemma ok_section : okb section_ok p_section.
Proof.
  apply ok_good; [apply good_section|].
  intros s sec r Hs E. unfold p_section, pbind in E. pose proof (good_p_lit [91] s) as G0.
  destruct (p_lit [91] s) as [[] s0| |k]; try discriminate. cbn in G0.
  pose proof (section_nums_sat num_ok (fun _ => True) (S (List.length s0)) s0 ltac:(lia)
                (fun s' H => proj1 (okb_sat _ _) ok_number s' ltac:(lia))) as G1.
  destruct (section_nums (S (List.length s0)) s0) as [nums r0| |k]; try discriminate. destruct G1 as [En G1].
  destruct (try_lit [93] r0); [inversion E; subst; unfold section_ok; rewrite En; reflexivity|].
  destruct (first_lit (section_texts match nums with [] => false | _ => true end) r0) as [[tk r1]|] eqn:Ef; [|discriminate].
  pose proof (first_lit_len _ _ _ _ Ef) as L1. pose proof (first_lit_in _ _ _ _ Ef) as Hin.
  (* what follows the keyword is a parser run on r1 *)
  assert (Hp : forall p : parser section, okb section_ok p -> p r1 = ROk sec r -> section_ok sec = true).
  { intros p Hp X. destruct (Hp r1 sec r ltac:(lia) X) as [H _]. exact H. }
  assert (Hclose : forall t, sect_text_ok nums t = true -> okb section_ok (p_lit [93] ;;; pret (nums, Some t))%parser).
  { intros t Ht. apply ok_lit, ok_ret. unfold section_ok. rewrite En. exact Ht. }
  assert (Hfields : forall neg, okb section_ok (p_sp ;;; hl <- p_paren_list_of p_astring ;;
                     match hl with [] => pfail | _ => p_lit [93] ;;; pret (nums, Some (TxFields neg hl)) end)%parser).
  { intros neg. apply ok_lit. eapply ok_bind; [apply ok_paren_list, ok_astring|intros hl Hh].
    destruct hl; [apply ok_fail|]. apply Hclose. exact Hh. }
  destruct tk.
  - exact (Hp _ (Hfields true) E).
  - exact (Hp _ (Hfields false) E).
  - exact (Hp _ (Hclose TxHeader eq_refl) E).
  - exact (Hp _ (Hclose TxText eq_refl) E).
  - (* MIME is only in the table when there are part numbers *)
    destruct nums; [cbn in Hin; intuition discriminate|]. exact (Hp _ (Hclose TxMime eq_refl) E).
Qed.

Lemma ok_partial : okb (fun p => num_ok (fst p) && num_ok (snd p)) p_partial.
Proof.
  unfold p_partial.
  apply ok_lit.
  eapply ok_bind; [apply ok_number|intros a Ha].
  apply ok_lit.
  eapply ok_bind; [apply ok_number|intros b Hb].
  apply ok_lit.
  apply ok_ret. cbn [fst snd]. rewrite Ha, Hb. reflexivity.
Qed.

Lemma ok_body_rest peek : okb fatt_ok (p_body_rest peek).
Proof.
  unfold p_body_rest. eapply ok_bind; [apply ok_section|intros sec Hsec].
  apply ok_if.
  - eapply ok_bind; [apply ok_partial|intros [a b] Hp]. apply ok_ret. cbn [fatt_ok]. rewrite Hsec. exact Hp.
  - apply (ok_ret fatt_ok (FBody peek sec None)). cbn [fatt_ok]. rewrite Hsec. reflexivity.
Qed.
Lemma ok_fetch_att : okb fatt_ok p_fetch_att.
Proof.
  unfold p_fetch_att. apply ok_skip; [apply good_many1|intros tok].
  destruct (lookup fetch_toks (lower_s tok)) as [[o| | | | |]|]; cbn [fetch_dispatch];
    try (apply ok_ret; reflexivity); try apply ok_fail; try apply ok_body_rest.
  apply (ok_if fatt_ok (peek_lit [91]) (p_body_rest false) (fun s => ROk FBodyShort s)); [apply ok_body_rest|].
  apply (ok_ret fatt_ok FBodyShort). reflexivity.
Qed.
Lemma ok_fetch_atts : okb (forallb fatt_ok) p_fetch_atts.
Proof.
  unfold p_fetch_atts. apply ok_if; [apply ok_paren_list, ok_fetch_att|].
  apply ok_try_ret; [reflexivity|]. apply ok_try_ret; [reflexivity|]. apply ok_try_ret; [reflexivity|].
  eapply ok_pmap; [apply ok_fetch_att|]. intros a Ha. cbn [forallb]. rewrite Ha. reflexivity.
Qed.

(* the names the table carries are fixed, so what the grammar asks of them is checked by evaluation *)
Definition stok_ok (t : stok) : bool :=
  match t with
  | SkFlag f => skey_ok true 0 (KKeyword (bs f))
  | SkUnflag f => not_alt_ok (KKeyword (bs f))
  | SkHdr h => lowered_ok (bs h)
  | _ => true
  end.
Lemma search_toks_stok_ok : forallb stok_ok (map snd search_toks) = true.
Proof. reflexivity. Qed.

Lemma ok_search_dispatch nested q t : okb q nested ->
  stok_ok t = true -> okb (skey_ok1 true q) (search_dispatch nested (Some t)).
Proof.
  intros Hn Ht.
  destruct t as [|f|f|h|w| | | | | | | | | | | |]; cbn [search_dispatch stok_ok] in *.
  - apply ok_ret; reflexivity.
  - apply ok_ret. exact Ht.
  - apply ok_ret. cbn [skey_ok1 andb]. rewrite Ht. reflexivity.
  - apply (ok_sp_arg lowered_ok); [apply ok_lower_astring|]. intros v Hv. cbn [skey_ok1 skey_ok]. rewrite Ht, Hv. reflexivity.
  - apply (ok_sp_arg date_wf); [apply ok_date|]. intros v Hv. exact Hv.
  - apply (ok_sp_arg lowered_ok); [apply ok_lower_astring|]. intros v Hv. exact Hv.
  - apply (ok_sp_arg lowered_ok); [apply ok_lower_astring|]. intros v Hv. exact Hv.
  - apply (ok_sp_arg2 lowered_ok lowered_ok); [apply ok_lower_astring|apply ok_lower_astring|].
    intros h v Hh Hv. cbn [skey_ok1 skey_ok]. rewrite Hh, Hv. reflexivity.
  - apply (ok_sp_arg is_atom); [apply ok_atom|]. intros f Hf. cbn [skey_ok1 skey_ok]. destruct (sysflag_key f); [reflexivity|exact Hf].
  - apply (ok_sp_arg is_atom); [apply ok_atom|]. intros f Hf. cbn [skey_ok1 not_alt_ok andb].
    destruct (unflag_key f); [reflexivity|]. rewrite Hf. reflexivity.
  - apply (ok_sp_arg num_ok); [apply ok_number|]. intros v Hv. exact Hv.
  - apply (ok_sp_arg num_ok); [apply ok_number|]. intros v Hv. exact Hv.
  - apply ok_ret; reflexivity.
  - apply ok_ret; reflexivity.
  - apply (ok_sp_arg q); [exact Hn|]. intros k Hk. cbn [skey_ok1 andb]. destruct (not_alt_ok k); [reflexivity|exact Hk].
  - apply (ok_sp_arg2 q q); [exact Hn|exact Hn|]. intros a b Ha Hb. cbn [skey_ok1 skey_ok]. rewrite Ha, Hb. reflexivity.
  - apply (ok_sp_arg set_ok); [apply ok_msg_set|]. intros v Hv. exact Hv.
Qed.

Lemma ok_search_key_body nested q : okb q nested -> (forall k, q k = true -> skey_ok1 true q k = true) ->
  okb (skey_ok1 true q) (search_key_body nested).
Proof.
  intros Hn Hmono. unfold search_key_body. apply ok_if.
  - (* a list of one key stands for that key, any other for their conjunction *)
    intros s k r Hs E. destruct (p_paren_list_of nested s) as [l r0| |c] eqn:El; try discriminate.
    destruct (ok_paren_list q nested Hn s l r0 Hs El) as [Hl Hr].
    destruct l as [|x [|y l]]; inversion E; subst; (split; [|exact Hr]).
    + reflexivity.
    + apply Hmono. cbn [forallb] in Hl. rewrite andb_true_r in Hl. exact Hl.
    + cbn [skey_ok1 andb]. destruct (is_new (x :: y :: l)); [reflexivity|exact Hl].
  - apply ok_try_many1; [intros tok|exact (ok_pmap set_ok _ KMsgSet _ ok_msg_set (fun l Hl => Hl))].
    destruct (lookup search_toks (lower_s tok)) as [t|] eqn:Et; [|apply ok_fail].
    apply ok_search_dispatch; [exact Hn|]. exact (proj1 (forallb_forall _ _) search_toks_stok_ok t (in_map snd _ _ (lookup_in _ _ _ Et))).
Qed.

Lemma ok_search_key d : okb (skey_ok true d) (p_search_key d).
Proof.
  induction d as [|d IH]; cbn [p_search_key].
  - eapply ok_weaken; [intros k Hk; rewrite skey_ok_0; exact Hk|].
    apply ok_search_key_body; [apply ok_fail|discriminate].
  - eapply ok_weaken; [intros k Hk; rewrite skey_ok_S; exact Hk|].
    apply ok_search_key_body; [exact IH|].
    intros k Hk. rewrite <- skey_ok_S. apply skey_ok_mono. exact Hk.
Qed.

Lemma fold_sel_ok l : forall o, sel_ok (fold_left sel_add l o) = negb (so_recursive (fold_left sel_add l o))
                                   || so_subscribed (fold_left sel_add l o) || so_special (fold_left sel_add l o).
Proof. intros o. reflexivity. Qed.

Lemma ok_select_options : okb sel_ok p_select_options.
Proof.
  unfold p_select_options. apply ok_skip; [apply good_paren_list_of; apply good_sel_item|intros l]. cbv zeta.
  set (o := fold_left sel_add l sel_none).
  destruct (so_recursive o && negb (so_subscribed o || so_special o)) eqn:E; [apply ok_fail|].
  apply ok_ret. unfold sel_ok. destruct (so_recursive o), (so_subscribed o), (so_special o); cbn in *; congruence.
Qed.

Definition ret_consistent (p : ret_opts * list status_att) : bool :=
  if ro_status (fst p) then match snd p with [] => false | _ => true end else match snd p with [] => true | _ => false end.

Lemma fold_ret_consistent l : forall acc, forallb retitem_ok l = true -> ret_consistent acc = true ->
  ret_consistent (fold_left ret_apply l acc) = true.
Proof.
  induction l as [|i l IH]; intros acc Hl Ha; cbn [fold_left]; [exact Ha|].
  cbn [forallb] in Hl. apply andb_true_iff in Hl. destruct Hl as [Hi Hl]. apply IH; [exact Hl|].
  destruct i as [t|st]; unfold ret_apply, ret_consistent in *; cbn [fst snd] in *.
  - destruct t; cbn [ret_add ro_status]; exact Ha.
  - cbn [ro_status]. destruct st; [discriminate|reflexivity].
Qed.

Lemma ok_ret_item : okb retitem_ok p_ret_item.
Proof.
  unfold p_ret_item. apply ok_skip; [apply good_atom|intros a].
  destruct (beq (lower_s a) (bs "status")).
  - apply ok_lit.
    apply ok_skip; [apply good_paren_list_of; apply good_status_att|intros st].
    destruct st; [apply ok_fail|apply ok_ret; reflexivity].
  - destruct (lookup ret_toks (lower_s a)); [apply ok_ret; reflexivity|apply ok_fail].
Qed.
Lemma ok_return_options : okb ret_consistent p_return_options.
Proof.
  unfold p_return_options.
  eapply ok_bind; [apply ok_paren_list, ok_ret_item|intros l Hl].
  apply ok_ret. apply fold_ret_consistent; [exact Hl|reflexivity].
Qed.

Lemma ok_list lsub : okb (cmd_okb true) (p_list lsub).
Proof.
  unfold p_list.
  apply ok_lit.
  eapply ok_bind; [|intros sel Hsel].
  { unfold p_list_sel. apply ok_if.
    - eapply ok_bind; [apply ok_select_options|intros o Ho].
      apply ok_lit. apply ok_ret. exact Ho.
    - apply (ok_ret sel_ok sel_none). reflexivity. }
  eapply ok_bind; [apply ok_mailbox|intros ref Href].
  apply ok_lit.
  eapply ok_bind; [|intros pp Hpp].
  { unfold p_list_pats.
    apply (ok_if (fun pp => match snd pp with [] => str_ok (fst pp) | _ => beq (fst pp) [] && forallb pattern_ok (snd pp) end)).
    - eapply ok_pmap; [apply ok_paren_list, ok_pattern|].
      intros l Hl. cbn [fst snd]. destruct l; [reflexivity|exact Hl].
    - eapply ok_pmap; [apply ok_list_mailbox|]. intros p Hp. exact Hp. }
  eapply ok_bind; [|intros rr Hrr].
  { unfold p_list_ret. apply (ok_try ret_consistent sp).
    - apply ok_lit.
      apply ok_lit. apply ok_return_options.
    - apply (ok_ret ret_consistent (ret_none, [])). reflexivity. }
  apply ok_ret. cbn [cmd_okb]. rewrite Hsel, Href. cbn [andb].
  destruct pp as [pat pats]. destruct rr as [ro st]. cbn [fst snd] in *. rewrite Hpp. cbn [andb].
  unfold ret_consistent in Hrr. cbn [fst snd] in Hrr. exact Hrr.
Qed.

Lemma dict_put_keys {V} (d : list (list Z * V)) k v : keys_distinct d = true -> keys_distinct (dict_put d k v) = true
  /\ (forall k0, existsb (fun e => beq k0 (fst e)) (dict_put d k v) = beq k0 k || existsb (fun e => beq k0 (fst e)) d).
Proof.
  induction d as [|[k' v'] d IH]; intros Hd; cbn [dict_put].
  - split; [reflexivity|]. intros k0. cbn. reflexivity.
  - cbn [keys_distinct] in Hd. apply andb_true_iff in Hd. destruct Hd as [Hk Hd]. destruct (IH Hd) as [I1 I2].
    destruct (beq k k') eqn:E.
    + apply beq_eq in E. subst k'. split.
      * cbn [keys_distinct]. rewrite Hk. exact Hd.
      * intros k0. cbn [existsb fst]. destruct (beq k0 k); reflexivity.
    + split.
      * cbn [keys_distinct]. rewrite I1, andb_true_r. rewrite I2. rewrite beq_sym in E. rewrite E. cbn [orb]. exact Hk.
      * intros k0. cbn [existsb fst]. rewrite I2. destruct (beq k0 k'), (beq k0 k); reflexivity.
Qed.
Lemma dict_put_all {V} (q : list Z * V -> bool) d k v :
  q (k, v) = true -> forallb q d = true -> forallb q (dict_put d k v) = true.
Proof.
  intros Hkv. induction d as [|[k' v'] d IH]; cbn [dict_put forallb]; [rewrite Hkv; reflexivity|].
  intros H. apply andb_true_iff in H. destruct H as [H1 H2]. destruct (beq k k') eqn:E; cbn [forallb].
  - apply beq_eq in E. subst k'. rewrite Hkv, H2. reflexivity.
  - rewrite H1, (IH H2). reflexivity.
Qed.
Lemma fold_dict_ok l : forall d, keys_distinct d = true -> forallb id_pair_ok d = true -> forallb id_pair_ok l = true ->
  keys_distinct (fold_left (fun d kv => dict_put d (fst kv) (snd kv)) l d) = true
  /\ forallb id_pair_ok (fold_left (fun d kv => dict_put d (fst kv) (snd kv)) l d) = true.
Proof.
  induction l as [|[k v] l IH]; intros d Hd Hok Hl; cbn [fold_left]; [split; assumption|].
  cbn [forallb] in Hl. apply andb_true_iff in Hl. destruct Hl as [Hkv Hl]. cbn [fst snd].
  apply IH; [apply dict_put_keys; exact Hd|apply dict_put_all; assumption|exact Hl].
Qed.
Lemma ok_id_pair : okb id_pair_ok p_id_pair.
Proof.
  unfold p_id_pair. eapply ok_bind; [apply ok_string|intros k Hk].
  apply ok_lit.
  apply ok_try_ret.
  - unfold id_pair_ok. cbn [fst snd]. rewrite Hk. reflexivity.
  - eapply ok_pmap; [apply ok_string|]. intros v Hv. unfold id_pair_ok. cbn [fst snd]. rewrite Hk, Hv. reflexivity.
Qed.
Lemma ok_id : okb (cmd_okb true) p_id.
Proof.
  unfold p_id. apply ok_lit. unfold p_id_params.
  apply ok_try_ret; [reflexivity|].
  apply ok_if; [|apply ok_fail].
  eapply ok_pmap; [apply ok_paren_list, ok_id_pair|].
  intros l Hl. cbn [cmd_okb]. destruct (fold_dict_ok l [] eq_refl eq_refl Hl) as [H1 H2]. rewrite H1, H2. reflexivity.
Qed.

Lemma ok_append : okb (cmd_okb true) p_append.
Proof.
  unfold p_append.
  apply ok_lit.
  eapply ok_bind; [apply ok_mailbox|intros m Hm].
  apply ok_lit.
  eapply ok_bind; [|intros fl Hfl].
  { unfold p_append_flags. apply (ok_if (forallb flag_ok)).
    - eapply ok_bind; [apply ok_paren_list, ok_flag|intros l Hl].
      apply ok_lit. apply ok_ret. exact Hl.
    - apply (ok_ret (forallb flag_ok) []). reflexivity. }
  eapply ok_bind; [|intros dt Hdt].
  { unfold p_append_date. apply (ok_if (fun d => match d with None => true | Some t => date_time_wf t end)).
    - eapply ok_bind; [apply ok_date_time|intros t Ht].
      apply ok_lit. apply ok_ret. exact Ht.
    - apply (ok_ret (fun d => match d with None => true | Some t => date_time_wf t end) None). reflexivity. }
  eapply ok_bind; [apply ok_string|intros msg Hmsg].
  apply ok_ret. cbn [cmd_okb]. rewrite Hm, Hfl, Hdt, Hmsg. reflexivity.
Qed.

Lemma nonempty_all_forallb {A} (q : A -> bool) l : nonempty_all q l = true -> forallb q l = true.
Proof. unfold nonempty_all. destruct l; [discriminate|auto]. Qed.

Lemma ok_store uid : okb (cmd_okb true) (p_store uid).
Proof.
  unfold p_store.
  apply ok_lit.
  eapply ok_bind; [apply ok_msg_set|intros set Hset].
  apply ok_lit.
  apply ok_skip; [apply good_store_action|intros act].
  apply ok_lit.
  apply ok_skip; [apply good_store_silent|intros silent].
  apply ok_lit.
  eapply ok_bind; [|intros fl Hfl].
  { unfold p_store_flags. apply (ok_if (forallb flag_ok)).
    - apply ok_paren_list, ok_flag.
    - eapply ok_weaken; [apply nonempty_all_forallb|]. apply ok_list_of, ok_flag. }
  apply ok_ret. cbn [cmd_okb]. rewrite Hset, Hfl. reflexivity.
Qed.

Lemma ok_search uid : okb (cmd_okb true) (p_search uid).
Proof.
  unfold p_search.
  apply ok_lit.
  eapply ok_bind; [|intros cs Hcs].
  { unfold p_search_charset. apply (ok_try lowered_ok (bs "charset")).
    - apply ok_lit.
      eapply ok_bind; [apply ok_lower_astring|intros c Hc].
      apply ok_lit. apply ok_ret. exact Hc.
    - apply (ok_ret lowered_ok (bs "us-ascii")). reflexivity. }
  eapply ok_bind; [apply ok_list_of, ok_search_key|intros keys Hk].
  apply ok_ret. cbn [cmd_okb]. rewrite Hcs. exact Hk.
Qed.

Lemma ok_command_body uid t : okb (cmd_okb true) (p_command_body uid t).
Proof.
  destruct t; cbn [p_command_body].
  - apply ok_ret. reflexivity.
  - destruct uid; [|apply ok_ret; reflexivity].
    apply (ok_sp_arg set_ok); [apply ok_msg_set|]. intros set Hset. exact Hset.
  - apply (ok_sp_arg is_atom); [apply ok_atom|]. intros m Hm. exact Hm.
  - apply (ok_sp_arg2 str_ok str_ok); [apply ok_astring|apply ok_astring|].
    intros u p Hu Hp. cbn [cmd_okb]. rewrite Hu, Hp. reflexivity.
  - apply (ok_sp_arg mailbox_ok); [apply ok_mailbox|]. intros m Hm. exact Hm.
  - apply (ok_sp_arg2 mailbox_ok mailbox_ok); [apply ok_mailbox|apply ok_mailbox|].
    intros a b Ha Hb. cbn [cmd_okb]. rewrite Ha, Hb. reflexivity.
  - apply ok_list.
  - apply ok_list.
  - apply ok_lit.
    eapply ok_bind; [apply ok_mailbox|intros m Hm].
    apply ok_lit.
    apply ok_skip; [apply good_paren_list_of; apply good_status_att|intros atts]. apply ok_ret. exact Hm.
  - apply ok_id.
  - apply ok_append.
  - apply ok_search.
  - apply (ok_sp_arg2 set_ok (forallb fatt_ok)); [apply ok_msg_set|apply ok_fetch_atts|].
    intros set atts Hset Ha. cbn [cmd_okb]. rewrite Hset, Ha. reflexivity.
  - apply ok_store.
  - apply (ok_sp_arg2 set_ok mailbox_ok); [apply ok_msg_set|apply ok_mailbox|].
    intros set m Hset Hm. cbn [cmd_okb]. rewrite Hset, Hm. reflexivity.
  - apply (ok_sp_arg2 set_ok mailbox_ok); [apply ok_msg_set|apply ok_mailbox|].
    intros set m Hset Hm. cbn [cmd_okb]. rewrite Hset, Hm. reflexivity.
  - apply ok_fail.
Qed.
Lemma ok_command t : okb (cmd_okb true) (p_command t).
Proof.
  destruct t; try apply (ok_command_body false).
  cbn [p_command]. apply ok_lit.
  apply ok_skip; [apply good_atom|intros c].
  destruct (lookup cmd_toks (lower_s c)) as [t'|]; [|apply ok_fail].
  destruct (is_uid_command t'); [apply ok_command_body|apply ok_fail].
Qed.

Theorem ok_parse_core : okb wf_canon parse_core.
Proof.
  unfold parse_core.
  eapply ok_bind; [apply (ok_many1 tag_char)|intros tag Htag].
  apply ok_lit.
  apply ok_skip; [apply good_atom|intros c].
  destruct (lookup cmd_toks (lower_s c)) as [t|]; [|apply ok_fail].
  eapply ok_bind; [apply ok_command|intros body Hb].
  apply ok_ret. unfold wf_canon, wfb. cbn [a_tag a_cmd]. rewrite Hb, andb_true_r. exact Htag.
Qed.

End Outputs.

Theorem parse_core_wf s a r : parse_core s = ROk a r -> Z.of_nat (List.length s) < 10 ^ 4300 -> wf_canon a = true.
Proof. intros E Hs. eapply (ok_parse_core (List.length s) Hs); [|exact E]. apply Nat.le_refl. Qed.
