(* Proofs/MboxKeys.v — in every reachable world of Model/Mbox.v the MH message numbers (keys) of every
   mailbox are positive and strictly ascending: first the messages the server knows, in list order, then
   the files it has not taken in yet.  (The hypothesis of C13_mh_tool_reads_world_flags; what `pack`,
   deliveries, COPY/APPEND and EXPUNGE do to the numbers.) *)
From Asimap Require Import Base.Res Spec.SetSem Model.Mbox Proofs.MboxInv Proofs.MboxStep Proofs.MboxClosed Proofs.MboxExact Proofs.MboxUid.
From Coq Require Import Sorting.Sorted.
Local Open Scope Z_scope.

Definition keys (l : list msg) : list Z := map m_key l.
Definition SK (ks : list Z) : Prop := StronglySorted Z.lt ks /\ Forall (fun k => 0 < k) ks.
Definition kP (b : mbox) : Prop := SK (keys (b_msgs b ++ b_disk b)).
Definition wK (w : world) : Prop := forall n b, get_box w n = Some b -> kP b.

Lemma kP_same b b' : b_msgs b' = b_msgs b -> b_disk b' = b_disk b -> kP b -> kP b'.
Proof. unfold kP. intros -> ->. trivial. Qed.
Lemma kP_empty b : b_msgs b = [] -> b_disk b = [] -> kP b.
Proof. unfold kP. intros -> ->. split; constructor. Qed.
Lemma kP_new (n : string) vv : kP (new_box vv).
Proof. apply kP_empty; reflexivity. Qed.

Lemma keys_app a b : keys (a ++ b) = keys a ++ keys b.
Proof. unfold keys. apply map_app. Qed.
Lemma keys_assign l : forall u, keys (assign_uids l u) = keys l.
Proof. induction l as [|m l IH]; intros u; cbn [assign_uids keys map]; [reflexivity|]. f_equal. apply IH. Qed.
Lemma sorted_app_r (a b : list Z) : StronglySorted Z.lt (a ++ b) -> StronglySorted Z.lt b.
Proof. induction a as [|x a IH]; cbn [app]; intros H; [exact H|]. inversion H; subst. apply IH. assumption. Qed.
Lemma sorted_app_l (a b : list Z) : StronglySorted Z.lt (a ++ b) -> StronglySorted Z.lt a.
Proof.
  induction a as [|x a IH]; cbn [app]; intros H; [constructor|]. inversion H as [|? ? Hs Hx]; subst.
  constructor; [exact (IH Hs)|]. apply Forall_app in Hx. apply Hx.
Qed.
(* pack numbers the messages as MH numbers new files *)
Lemma keys_renumber l : forall k, keys (renumber l k) = keys (filed l k).
Proof. induction l as [|m l IH]; intros k; cbn [renumber filed keys map]; [reflexivity|]. f_equal. apply IH. Qed.
Lemma renumber_SK l k : StronglySorted Z.lt (keys (renumber l k)) /\ Forall (fun x => k <= x) (keys (renumber l k)).
Proof. rewrite keys_renumber. apply filed_SK. Qed.
Lemma SK_above k ks : 0 < k -> StronglySorted Z.lt ks /\ Forall (fun x => k <= x) ks -> SK ks.
Proof. intros Hk [Hs Hf]. split; [exact Hs|]. eapply Forall_impl; [|exact Hf]. cbv beta. intros; lia. Qed.
Lemma SK_app a b : SK a -> SK b -> (forall x y, In x a -> In y b -> x < y) -> SK (a ++ b).
Proof.
  intros [Sa Pa] [Sb Pb] H. split; [apply sorted_app; assumption|apply Forall_app; split; assumption].
Qed.
Lemma SK_filter_prefix f a d : SK (keys (a ++ d)) -> SK (keys (filter f a ++ d)).
Proof.
  induction a as [|x a IH]; cbn [filter app]; intros H; [exact H|].
  destruct H as [Hs Hp]. cbn [keys map] in Hs, Hp. inversion Hs as [|? ? Hs' Hx]; subst. inversion Hp as [|? ? Hx0 Hp']; subst.
  assert (Hrec : SK (keys (filter f a ++ d))) by (apply IH; split; assumption).
  destruct (f x); [|exact Hrec]. cbn [app keys map]. destruct Hrec as [Hs2 Hp2]. split; constructor; trivial.
  apply Forall_forall. intros k Hk. rewrite Forall_forall in Hx. apply Hx.
  unfold keys in *. rewrite map_app in *. apply in_app_iff in Hk. apply in_app_iff. destruct Hk as [Hk|Hk]; [left|right; exact Hk].
  apply in_map_iff in Hk as [m [<- Hm]]. apply filter_In in Hm as [Hm _]. apply in_map. exact Hm.
Qed.
Lemma keys_map_at f sl l : forall pos, (forall m, m_key (f m) = m_key m) -> keys (map_at f sl l pos) = keys l.
Proof.
  induction l as [|m l IH]; intros pos Hf; cbn [map_at keys map]; [reflexivity|]. f_equal; [destruct (zmem pos sl); [apply Hf|reflexivity]|].
  apply IH. exact Hf.
Qed.

Lemma kP_disk_sorted b : kP b -> sort_by_key (b_disk b) = b_disk b.
Proof. intros [Hs _]. rewrite keys_app in Hs. exact (sort_sorted _ (sorted_app_r _ _ Hs)). Qed.
Lemma resync_kP b : kP b -> kP (fst (resync b)).
Proof.
  intros H. destruct (resync_data b) as [S1 [_ [_ S4]]]. unfold kP. rewrite S1, S4, app_nil_r.
  unfold fresh_of. rewrite (kP_disk_sorted b H), keys_app, keys_assign, <- keys_app. exact H.
Qed.
Lemma flush_kP b s : kP b -> kP (fst (flush b s)).
Proof. destruct (flush_msgs b s) as [A [_ [_ D]]]. apply kP_same; trivial. Qed.
Lemma dispatch_kP b d rs : kP b -> kP (fst (dispatch b d rs)).
Proof. destruct (dispatch_msgs b d rs) as [A [_ [_ D]]]. apply kP_same; trivial. Qed.
Lemma upd_kP b s f : kP b -> kP (upd_client b s f). Proof. apply kP_same; reflexivity. Qed.
Lemma setc_kP b cs : kP b -> kP (set_clients b cs). Proof. apply kP_same; reflexivity. Qed.
Lemma expunge_kP b del : kP b -> kP (fst (expunge b del)).
Proof.
  intros H. unfold kP. rewrite expunge_exact, (proj2 (proj2 (expunge_rest b del))). apply SK_filter_prefix. exact H.
Qed.
Lemma max_key_nonneg l : 0 <= max_key l.
Proof. unfold max_key. apply fold_max_ge. Qed.
Lemma with_disk_kP b fs : kP b -> kP (with_disk b (add_files (b_disk b) (b_msgs b) fs)).
Proof.
  intros H. unfold kP in *. cbn [with_disk b_disk b_msgs]. rewrite add_files_spec, app_assoc, keys_app.
  set (K := Z.max (max_key (b_disk b)) (max_key (b_msgs b)) + 1).
  apply SK_app; [exact H| |].
  - apply (SK_above K), filed_SK. pose proof (max_key_nonneg (b_disk b)). lia.
  - intros x y Hx Hy. pose proof (proj1 (Forall_forall _ _) (proj2 (filed_SK fs K)) y Hy) as Hf. cbv beta in Hf.
    unfold keys in Hx. apply in_map_iff in Hx as [m [<- Hm]]. apply in_app_iff in Hm.
    destruct Hm as [Hm|Hm]; apply max_key_in in Hm; lia.
Qed.
Lemma set_msgs_kP b ms : keys ms = keys (b_msgs b) -> kP b -> kP (set_msgs b ms).
Proof. unfold kP. cbn [set_msgs b_msgs b_disk]. rewrite !keys_app. intros ->. trivial. Qed.
Lemma maybe_pack_kP w b : b_disk b = [] -> kP b -> kP (maybe_pack w b).
Proof.
  intros Hd H. unfold maybe_pack. destruct (should_pack w b); [|exact H].
  unfold kP. cbn [set_msgs b_msgs b_disk]. rewrite Hd, app_nil_r. apply (SK_above 1), renumber_SK. lia.
Qed.

Lemma kP_closed : closed (fun _ => kP).
Proof.
  split; intros n.
  - exact resync_kP.
  - exact flush_kP.
  - intros b d sl show. apply dispatch_kP.
  - exact expunge_kP.
  - intros b s f _. apply upd_kP.
  - intros b s. apply setc_kP.
  - intros b s c _. apply setc_kP.
  - intros b. apply setc_kP.
  - intros b k unseen cid0 date. apply with_disk_kP.
  - intros b flags date cid _. apply with_disk_kP.
  - intros b n' src sl _. apply with_disk_kP.
  - intros b act flags sl _. apply set_msgs_kP, keys_map_at. intros m. reflexivity.
  - intros b k sl. apply set_msgs_kP, keys_map_at. intros m. destruct k; reflexivity.
  - intros w b H. apply maybe_pack_kP; [apply resync_disk_empty|apply resync_kP, H].
Qed.

Theorem step_wK w o : wK w -> wK (fst (step w o)).
Proof. exact (step_wall _ kP_closed kP_new w o). Qed.

Theorem reachable_wK a b c ops : wK (fst (run (init_world a b c) ops)).
Proof. exact (reachable_wall _ kP_closed kP_new a b c ops). Qed.

(* the keys of the known messages alone, and [0 <= k] for [0 < k]: the hypotheses of Proofs/MhSeqP.v, which needs no more *)
Theorem reachable_keys_ascending a b c ops n bx :
  get_box (fst (run (init_world a b c) ops)) n = Some bx ->
  StronglySorted Z.lt (map m_key (b_msgs bx)) /\ Forall (fun k => 0 <= k) (map m_key (b_msgs bx)).
Proof.
  intros H. pose proof (reachable_wK a b c ops n bx H) as [Hs Hp]. rewrite keys_app in Hs, Hp. split.
  - exact (sorted_app_l _ _ Hs).
  - apply Forall_app in Hp. destruct Hp as [Hp _]. eapply Forall_impl; [|exact Hp]. intros k Hk. cbv beta in Hk. lia.
Qed.
