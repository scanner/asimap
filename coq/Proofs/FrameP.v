(* C19: Model/Frame.v (the front-end's loop, the IPC framing, the relay of responses) against
   Spec/FrameSpec.v.  The loops carry fuel, the length of the stream.  [body_rel] says in which one
   way an iteration of the front-end uses its continuation: that gives [run_unfold], after which no
   statement mentions fuel, and the invariant of the loop on every stream ([frame_loop_good]).  On
   well-formed streams each [step_*] follows one iteration, [item_run] one item of the reference,
   and [run_concat] chains them, whatever comes behind. *)
From Asimap Require Import Base.Res Base.Bytes Spec.FrameSpec Model.Frame.
From Coq Require Import ZifyBool.
Open Scope Z_scope.

Lemma blen_app a b : blen (a ++ b) = blen a + blen b.
Proof. unfold blen; rewrite app_length; lia. Qed.
Lemma blen_nonneg a : 0 <= blen a.
Proof. unfold blen; lia. Qed.
Lemma blen_cons x a : blen (x :: a) = 1 + blen a.
Proof. unfold blen; cbn [List.length]; lia. Qed.
Lemma blen_nil : blen [] = 0.
Proof. reflexivity. Qed.
Lemma blen_CRLF : blen CRLF = 2.
Proof. reflexivity. Qed.

#[local] Hint Rewrite blen_app blen_cons blen_nil blen_CRLF : blen.

Lemma isnil_app_r a b : b <> [] -> isnil (a ++ b) = false.
Proof. intros H; destruct a; [destruct b; [congruence|reflexivity]|reflexivity]. Qed.
Lemma isnil_false a : a <> [] -> isnil a = false.
Proof. destruct a; [congruence|reflexivity]. Qed.
Lemma isnil_true_iff a : isnil a = true <-> a = [].
Proof. destruct a; cbn; split; congruence. Qed.
Lemma isnil_negb a : negb (isnil a) = true -> a <> [].
Proof. destruct a; discriminate. Qed.

Lemma emits_nil o : emits [] o = o.
Proof. destruct o; reflexivity. Qed.
Lemma emits_stop es st : emits es ([], st) = (es, st).
Proof. unfold emits. cbn [fst snd]. rewrite app_nil_r. reflexivity. Qed.
Lemma emits_app a b o : emits (a ++ b) o = emits a (emits b o).
Proof. unfold emits; cbn [fst snd]; rewrite app_assoc; reflexivity. Qed.
Lemma emit_emits e o : emit e o = emits [e] o.
Proof. reflexivity. Qed.

Lemma gtb_false a b : a <= b -> (a >? b) = false.
Proof. lia. Qed.
Lemma gtb_true a b : b < a -> (a >? b) = true.
Proof. lia. Qed.

Lemma split_crlf_cons x y s :
  split_crlf (x :: y :: s) =
    if (x =? 13) && (y =? 10) then Some ([], s)
    else match split_crlf (y :: s) with Some (l, r) => Some (x :: l, r) | None => None end.
Proof. reflexivity. Qed.
(* [hd 0] stands for "the next octet, if any" *)
Lemma nocrlf_cons x l : nocrlf (x :: l) = negb ((x =? 13) && (hd 0 l =? 10)) && nocrlf l.
Proof. destruct l; cbn [nocrlf hd]; [rewrite andb_false_r|]; reflexivity. Qed.

Lemma split_crlf_app l r : nocrlf l = true -> split_crlf (l ++ CRLF ++ r) = Some (l, r).
Proof.
  change (CRLF ++ r) with (13 :: 10 :: r). induction l as [|x l IH]; intros Hn; [reflexivity|].
  rewrite nocrlf_cons in Hn. apply andb_true_iff in Hn as [H1 H2]. apply negb_true_iff in H1.
  specialize (IH H2). destruct l as [|y l']; cbn [app hd] in *; rewrite split_crlf_cons.
  - rewrite andb_false_r. reflexivity.
  - rewrite H1, IH. reflexivity.
Qed.

Lemma split_crlf_spec s : forall l r, split_crlf s = Some (l, r) -> s = l ++ CRLF ++ r.
Proof.
  induction s as [|x s IH]; intros l r H; [discriminate H|].
  destruct s as [|y s']; [discriminate H|]. rewrite split_crlf_cons in H.
  destruct ((x =? 13) && (y =? 10)) eqn:E.
  - inversion H; subst. replace x with 13 by lia. replace y with 10 by lia. reflexivity.
  - destruct (split_crlf (y :: s')) as [[l0 r0]|]; [|discriminate H].
    inversion H; subst. rewrite (IH l0 r eq_refl). reflexivity.
Qed.

Lemma readuntil_line lim l r :
  nocrlf l = true ->
  readuntil_crlf lim (l ++ CRLF ++ r) = if blen l >? lim then RdLimit else RdOk (l ++ CRLF) r.
Proof.
  intros Hn. unfold readuntil_crlf. rewrite (split_crlf_app _ _ Hn). reflexivity.
Qed.

Lemma readuntil_shorter lim s ch r : readuntil_crlf lim s = RdOk ch r -> (List.length r < List.length s)%nat.
Proof.
  unfold readuntil_crlf. destruct (split_crlf s) as [[l r0]|] eqn:E.
  - destruct (blen l >? lim); [discriminate|]. intros H; inversion H; subst.
    apply split_crlf_spec in E. subst s. rewrite !app_length. cbn [List.length CRLF]. lia.
  - destruct (blen s - 1 >? lim); discriminate.
Qed.

Lemma hd_no10 l : Forall (fun x => x <> 10) l -> (hd 0 l =? 10) = false.
Proof. destruct 1; cbn [hd]; lia. Qed.

Lemma nocrlf_app a b : nocrlf a = true -> Forall (fun x => x <> 10) b -> nocrlf (a ++ b) = true.
Proof.
  intros Ha Hb. induction a as [|x a IH]; cbn [app].
  - induction Hb as [|y b Hy Hb IH]; [reflexivity|].
    rewrite nocrlf_cons, (hd_no10 _ Hb), andb_false_r, IH. reflexivity.
  - rewrite nocrlf_cons in Ha |- *. apply andb_true_iff in Ha as [H1 H2]. rewrite (IH H2), andb_true_r.
    destruct a; [cbn [app]; rewrite (hd_no10 _ Hb), andb_false_r; reflexivity|exact H1].
Qed.

Lemma readexactly_app d r : readexactly (blen d) (d ++ r) = Some (d, r).
Proof.
  unfold readexactly. rewrite blen_app.
  replace (blen d <=? blen d + blen r) with true by (unfold blen; lia).
  unfold blen. rewrite Nat2Z.id.
  rewrite firstn_app, Nat.sub_diag, firstn_all. cbn [firstn]. rewrite app_nil_r.
  rewrite skipn_app, Nat.sub_diag, skipn_all. reflexivity.
Qed.

Lemma readexactly_shorter n s d r : readexactly n s = Some (d, r) -> (List.length r <= List.length s)%nat.
Proof.
  unfold readexactly. destruct (n <=? blen s); [|discriminate]. intros H; inversion H; subst.
  rewrite skipn_length. lia.
Qed.

Lemma readexactly_spec n s d r : 0 <= n -> readexactly n s = Some (d, r) -> s = d ++ r /\ blen d = n.
Proof.
  unfold readexactly. destruct (n <=? blen s) eqn:E; [|discriminate]. intros Hn H; inversion H; subst.
  split; [symmetry; apply firstn_skipn|].
  unfold blen in *. rewrite firstn_length. lia.
Qed.

Lemma rstrip_ws w : Forall (fun x => is_ws x = true) w -> rstrip w = [].
Proof. induction 1 as [|x w Hx _ IH]; [reflexivity|]. cbn [rstrip]. rewrite IH, Hx. reflexivity. Qed.

Lemma rstrip_app_ws l w : Forall (fun x => is_ws x = true) w -> rstrip (l ++ w) = rstrip l.
Proof.
  intros Hw. induction l as [|x l IH]; [apply rstrip_ws; exact Hw|].
  cbn [app rstrip]. rewrite IH. reflexivity.
Qed.

Lemma rstrip_snoc l x : is_ws x = false -> rstrip (l ++ [x]) = l ++ [x].
Proof.
  intros Hx. induction l as [|a l IH]; [cbn [app rstrip]; rewrite Hx; reflexivity|].
  cbn [app rstrip]. rewrite IH. destruct (l ++ [x]) eqn:E; [destruct l; discriminate E|reflexivity].
Qed.

Lemma ws_CRLF : Forall (fun x => is_ws x = true) CRLF.
Proof. repeat constructor. Qed.

Lemma rstrip_no_trailing t : no_trailing_ws t -> rstrip t = t.
Proof.
  intros H. destruct t as [|a t']; [reflexivity|].
  destruct (@exists_last _ (a :: t')) as [pre [x E]]; [discriminate|].
  rewrite E. apply rstrip_snoc. apply (H pre x E).
Qed.

Lemma rstrip_stripped l : no_trailing_ws (rstrip l).
Proof.
  induction l as [|a l IH]; intros pre x E; [destruct pre; discriminate E|].
  cbn [rstrip] in E. destruct (rstrip l) as [|y r].
  - destruct (is_ws a) eqn:Ea; destruct pre as [|? [|]]; try discriminate E. injection E as ->. exact Ea.
  - destruct pre as [|? pre]; [discriminate E|]. injection E as _ E. exact (IH pre x E).
Qed.

Lemma span_digits_spec l : forall a b, span_digits l = (a, b) -> l = a ++ b /\ Forall (fun d => is_digit d = true) a.
Proof.
  induction l as [|x l IH]; intros a b H; cbn [span_digits] in H.
  - inversion H; subst. split; [reflexivity|constructor].
  - destruct (is_digit x) eqn:Ex.
    + destruct (span_digits l) as [a0 b0] eqn:E. inversion H; subst.
      destruct (IH a0 b eq_refl) as [H1 H2]. split; [cbn; rewrite H1; reflexivity|constructor; assumption].
    + inversion H; subst. split; [reflexivity|constructor].
Qed.

Lemma span_digits_app d x r :
  Forall (fun d => is_digit d = true) d -> is_digit x = false -> span_digits (d ++ x :: r) = (d, x :: r).
Proof.
  intros Hd Hx. induction Hd as [|y d Hy _ IH]; cbn [app span_digits].
  - rewrite Hx. reflexivity.
  - rewrite Hy, IH. reflexivity.
Qed.

Lemma rev_announce pre ds plus :
  rev (pre ++ announce ds plus) = 125 :: (if plus then [43] else []) ++ rev ds ++ 123 :: rev pre.
Proof.
  unfold announce. rewrite !rev_app_distr. cbn [rev app]. destruct plus; cbn [rev app]; rewrite <- ?app_assoc; reflexivity.
Qed.

Lemma lit_match_rev_shape (plus : bool) dr r :
  dr <> [] -> Forall (fun d => is_digit d = true) dr ->
  lit_match_rev (125 :: (if plus then [43] else []) ++ dr ++ 123 :: r) = Some (rev dr, plus).
Proof.
  intros Hne Hd. destruct dr as [|y dr]; [congruence|]. unfold lit_match_rev.
  change (125 =? 125) with true. cbv iota.
  (* the first digit is not taken for the '+' *)
  assert (Hy : (y =? 43) = false) by (inversion Hd as [|? ? Hy _]; unfold is_digit in Hy; lia).
  (* here and at every later ascription of this shape: the lemma restated as the goal has it, up to
     computation ((y :: dr) ++ _, blen [], [] ++ _), so that [rewrite] finds its pattern *)
  destruct plus; cbn [app tl]; [change (43 =? 43) with true|rewrite Hy]; cbv iota zeta; cbn [tl];
    rewrite (span_digits_app (y :: dr) 123 r Hd eq_refl : span_digits (y :: dr ++ _) = _); reflexivity.
Qed.

Lemma lit_match_rev_announce pre ds plus :
  digits_ok ds -> lit_match_rev (rev (pre ++ announce ds plus)) = Some (ds, plus).
Proof.
  intros [Hne Hd]. rewrite rev_announce, lit_match_rev_shape, rev_involutive; [reflexivity| |apply Forall_rev; exact Hd].
  intros E. apply Hne. rewrite <- (rev_involutive ds), E. reflexivity.
Qed.

Lemma re_search_announce pre ds plus : digits_ok ds -> re_search (pre ++ announce ds plus) = Some (ds, plus).
Proof.
  intros H. unfold re_search. pose proof (lit_match_rev_announce pre ds plus H) as L.
  rewrite rev_announce in *. change (125 =? 10) with false. cbv iota. exact L.
Qed.

Lemma lit_match_rev_sound r0 ds plus :
  lit_match_rev r0 = Some (ds, plus) -> exists pre, rev r0 = pre ++ announce ds plus /\ digits_ok ds.
Proof.
  unfold lit_match_rev. destruct r0 as [|c r]; [discriminate|].
  destruct (c =? 125) eqn:Ec; [|discriminate]. cbv zeta.
  (* whatever the test for '+' says, it splits r into the optional '+' and the rest *)
  set (pl := match r with p :: _ => p =? 43 | [] => false end).
  assert (Er : r = (if pl then [43] else []) ++ (if pl then tl r else r)).
  { subst pl. destruct r as [|p r']; [reflexivity|]. destruct (p =? 43) eqn:Ep; [|reflexivity].
    replace p with 43 by lia. reflexivity. }
  clearbody pl. revert Er. generalize (if pl then tl r else r). intros r1 Er.
  destruct (span_digits r1) as [dr r2] eqn:Es.
  destruct dr as [|d0 dr]; [discriminate|]. destruct r2 as [|o r3]; [discriminate|].
  destruct (o =? 123) eqn:Eo; [|discriminate]. intros [= <- <-]. change (rev dr ++ [d0]) with (rev (d0 :: dr)).
  apply span_digits_spec in Es as [E1 E2]. exists (rev r3). split.
  - rewrite <- (rev_involutive (rev r3 ++ _)), rev_announce, !rev_involutive, Er, E1.
    replace c with 125 by lia. replace o with 123 by lia. reflexivity.
  - split; [|apply Forall_rev; exact E2].
    intros E. apply (f_equal (@List.length Z)) in E. rewrite rev_length in E. discriminate E.
Qed.

Lemma ws_10 : is_ws 10 = true.
Proof. reflexivity. Qed.

(* `$`: the announcement found ends the text, or stands before a newline that does *)
Lemma re_search_sound t ds plus :
  re_search t = Some (ds, plus) ->
  exists pre, (t = pre ++ announce ds plus \/ t = pre ++ announce ds plus ++ [10]) /\ digits_ok ds.
Proof.
  unfold re_search. destruct (rev t) as [|c r] eqn:E; [discriminate|].
  assert (Et : t = rev r ++ [c]) by (rewrite <- (rev_involutive t), E; reflexivity).
  destruct (c =? 10) eqn:Ec; intros [pre [H1 H2]]%lit_match_rev_sound; exists pre; (split; [|exact H2]).
  - right. rewrite Et, H1, <- app_assoc. replace c with 10 by lia. reflexivity.
  - left. rewrite Et. exact H1.
Qed.

Lemma re_search_none t : no_trailing_ws t -> ~ ends_in_announce t -> re_search t = None.
Proof.
  intros Hw Hn. destruct (re_search t) as [[ds plus]|] eqn:E; [exfalso|reflexivity].
  apply re_search_sound in E as (pre & [E | E] & Hd).
  - apply Hn. exists pre, ds, plus. exact (conj E Hd).
  - rewrite app_assoc in E. discriminate (Hw _ _ E).
Qed.

(* ibuffer_size is always the length of the joined ibuffer *)
Lemma buf_add_eq buf msg : buf_add buf msg = buf ++ msg.
Proof. unfold buf_add. destruct msg; [rewrite app_nil_r|]; reflexivity. Qed.
Lemma size_add_eq buf msg : size_add (blen buf) msg = blen (buf ++ msg).
Proof. unfold size_add. destruct msg; cbn [isnil]; [rewrite app_nil_r|rewrite blen_app]; reflexivity. Qed.
Lemma size_lit_eq buf data : blen buf + (blen data + 2) = blen (buf ++ CRLF ++ data).
Proof. autorewrite with blen. lia. Qed.

Definition ev_ok (c : cfg) (e : ev) : Prop := match e with Msg m => m <> [] /\ blen m <= maxin c | Wr _ => True end.
Definition good (c : cfg) (o : outp) : Prop := snd o <> NoFuel /\ Forall (ev_ok c) (fst o).

(* [body] uses its continuation in one way only: after events that are [ev_ok], at most once, on a
   strictly shorter stream, with a size that is the length of the buffer.  Said for a relation [R]
   between the results under two continuations; equality gives independence of the fuel, [good]
   of the left result gives the invariant of the loop. *)
Section Body.
  Variable c : cfg.
  Variable R : outp -> outp -> Prop.
  Hypothesis R_nil : forall st, st <> NoFuel -> R ([], st) ([], st).
  Hypothesis R_emits : forall es o1 o2, Forall (ev_ok c) es -> R o1 o2 -> R (emits es o1) (emits es o2).

  Let R_emit e o1 o2 : ev_ok c e -> R o1 o2 -> R (emit e o1) (emit e o2).
  Proof. intros He. apply (R_emits [e]). constructor; [exact He|constructor]. Qed.

  Lemma after_big_rel k1 k2 n plus rest :
    (forall s', (List.length s' <= List.length rest)%nat -> R (k1 [] 0 s') (k2 [] 0 s')) ->
    R (after_big_literal c k1 n plus rest) (after_big_literal c k2 n plus rest).
  Proof.
    intros H. unfold after_big_literal. destruct (fix_resync c).
    - destruct plus; [|apply H; lia].
      destruct (readexactly n rest) as [[d r']|] eqn:E; [|apply R_nil; discriminate].
      apply H. apply readexactly_shorter in E. exact E.
    - destruct (readuntil_crlf (rlimit c) rest) as [ch r'| |] eqn:E; try (apply R_nil; discriminate).
      apply H. apply readuntil_shorter in E. lia.
  Qed.

  Lemma body_rel k1 k2 buf s :
    (forall b s', (List.length s' < List.length s)%nat -> R (k1 b (blen b) s') (k2 b (blen b) s')) ->
    R (body c k1 buf (blen buf) s) (body c k2 buf (blen buf) s).
  Proof.
    intros H. unfold body.
    destruct (readuntil_crlf (rlimit c) s) as [ch rest| |] eqn:E;
      [|apply R_nil; discriminate|destruct (fix_longline c); [apply (R_emit (Wr BAD_LINE) ([], Closed) ([], Closed) I)|]; apply R_nil; discriminate].
    apply readuntil_shorter in E. cbv zeta. rewrite buf_add_eq, size_add_eq.
    destruct (isnil (buf ++ rstrip ch)) eqn:En; [apply R_emit; [exact I|apply H; exact E]|].
    destruct (re_search (rstrip ch)) as [[ds plus]|]; [unfold on_literal|unfold on_line].
    - destruct (blen ds >? maxdigits c); [apply R_nil; discriminate|].
      destruct (dec_val ds >? maxin c).
      + apply R_emit; [exact I|]. apply after_big_rel. intros s' Hs. apply (H []). lia.
      + apply R_emits; [destruct plus; repeat constructor|].
        destruct (readexactly (dec_val ds) rest) as [[d r']|] eqn:E2; [|apply R_nil; discriminate].
        apply readexactly_shorter in E2. cbv zeta. rewrite size_lit_eq.
        destruct (_ >? maxin c); [apply R_emit; [exact I|apply (H [])]|apply H]; lia.
    - destruct (_ >? maxin c) eqn:Es; (apply R_emit; [|apply (H [] rest E)]); [exact I|].
      (* a command is handed on: the buffer is not empty and was found within the limit *)
      split; [intros E0; rewrite E0 in En; discriminate En|lia].
  Qed.

  Lemma loop_rel : forall f1 f2 buf s,
    (List.length s < f1)%nat -> (List.length s < f2)%nat ->
    R (loop c f1 buf (blen buf) s) (loop c f2 buf (blen buf) s).
  Proof.
    induction f1 as [|f1 IH]; intros [|f2] buf s H1 H2; try lia.
    cbn [loop]. apply body_rel. intros b s' Hs. apply IH; lia.
  Qed.
End Body.

Section Fuel.
  Variable c : cfg.

  Lemma loop_fuel f1 f2 buf s :
    (List.length s < f1)%nat -> (List.length s < f2)%nat ->
    loop c f1 buf (blen buf) s = loop c f2 buf (blen buf) s.
  Proof. apply (loop_rel c eq); [reflexivity|intros es o1 o2 _ E; rewrite E; reflexivity]. Qed.

  Lemma run_unfold buf s : run c buf (blen buf) s = body c (run c) buf (blen buf) s.
  Proof.
    unfold run at 1. cbn [loop].
    apply (body_rel c eq); [reflexivity|intros es o1 o2 _ E; rewrite E; reflexivity|].
    intros b s' Hs. apply loop_fuel; lia.
  Qed.

  Lemma frame_loop_fuel_free s f : (List.length s < f)%nat -> loop c f [] 0 s = frame_loop c s.
  Proof. intros H. unfold frame_loop, run. apply (loop_fuel _ _ []); lia. Qed.
End Fuel.

Section Invariant.
  Variable c : cfg.

  Lemma good_emits es o : Forall (ev_ok c) es -> good c o -> good c (emits es o).
  Proof. intros He [H1 H2]. split; [exact H1|apply Forall_app; split; assumption]. Qed.

  Lemma frame_loop_good s : good c (frame_loop c s).
  Proof.
    (* [loop_rel] for a relation that ignores its right side *)
    unfold frame_loop, run. set (f := S (List.length s)).
    apply (loop_rel c (fun o _ => good c o) (fun st H => conj H (Forall_nil _)) (fun es o _ => good_emits es o) f f []); lia.
  Qed.

  Lemma msgs_of_good o : good c o -> Forall (fun m => m <> [] /\ blen m <= maxin c) (msgs_of o).
  Proof.
    intros [_ H]. unfold msgs_of. induction H as [|e es He _ IH]; [constructor|].
    cbn [flat_map]. destruct e as [w|m]; cbn [app]; [exact IH|constructor; [exact He|exact IH]].
  Qed.
End Invariant.

Lemma announce_no10 ds plus : digits_ok ds -> Forall (fun x => x <> 10) (announce ds plus).
Proof.
  intros [_ Hd]. unfold announce. repeat (apply Forall_app; split).
  - repeat constructor. lia.
  - eapply Forall_impl; [|exact Hd]. unfold is_digit. lia.
  - destruct plus; repeat constructor. lia.
  - repeat constructor. lia.
Qed.

Lemma rstrip_announce t ds plus : rstrip (t ++ announce ds plus) = t ++ announce ds plus.
Proof. unfold announce. rewrite !app_assoc. apply rstrip_snoc. reflexivity. Qed.

Lemma announce_nonnil t ds plus : t ++ announce ds plus <> [].
Proof. unfold announce. intros E. apply app_eq_nil in E as [_ E]. discriminate E. Qed.

Section Steps.
  Variable c : cfg.

  Lemma step_line buf l rest :
    nocrlf l = true -> blen l <= rlimit c ->
    run c buf (blen buf) (l ++ CRLF ++ rest) =
      let buf1 := buf ++ rstrip l in
      if isnil buf1 then emit (Wr BAD_EMPTY) (run c buf1 (blen buf1) rest)
      else match re_search (rstrip l) with
           | Some (ds, plus) => on_literal c (run c) buf1 (blen buf1) ds plus rest
           | None => on_line c (run c) buf1 (blen buf1) rest
           end.
  Proof.
    intros Hn Hl. rewrite run_unfold. unfold body. rewrite (readuntil_line _ _ _ Hn), (gtb_false _ _ Hl). cbv zeta.
    rewrite (rstrip_app_ws l CRLF ws_CRLF), buf_add_eq, size_add_eq. reflexivity.
  Qed.

  Lemma step_blank w rest :
    Forall (fun x => is_ws x = true) w -> nocrlf w = true -> blen w <= rlimit c ->
    run c [] 0 (w ++ CRLF ++ rest) = emit (Wr BAD_EMPTY) (run c [] 0 rest).
  Proof.
    intros Hw Hn Hl. rewrite (step_line [] w rest Hn Hl : run c [] 0 _ = _), (rstrip_ws w Hw). reflexivity.
  Qed.

  Lemma step_last buf t rest :
    nocrlf t = true -> blen t <= rlimit c -> no_trailing_ws t -> ~ ends_in_announce t ->
    buf ++ t <> [] ->
    run c buf (blen buf) (t ++ CRLF ++ rest) =
      (if blen (buf ++ t) >? maxin c then emit (Wr BAD_CMD) (run c [] 0 rest)
       else emit (Msg (buf ++ t)) (run c [] 0 rest)).
  Proof.
    intros Hn Hl Hw Ha Hne.
    rewrite (step_line buf t rest Hn Hl), (rstrip_no_trailing t Hw). cbv zeta.
    rewrite (isnil_false _ Hne), (re_search_none t Hw Ha). reflexivity.
  Qed.

  Lemma step_announce buf t ds plus rest :
    nocrlf t = true -> digits_ok ds -> blen (t ++ announce ds plus) <= rlimit c ->
    run c buf (blen buf) (t ++ announce ds plus ++ CRLF ++ rest) =
      on_literal c (run c) (buf ++ t ++ announce ds plus) (blen (buf ++ t ++ announce ds plus)) ds plus rest.
  Proof.
    intros Hn Hd Hl. rewrite app_assoc.
    rewrite (step_line buf _ rest (nocrlf_app _ _ Hn (announce_no10 ds plus Hd)) Hl).
    rewrite rstrip_announce, (re_search_announce t ds plus Hd). cbv zeta.
    rewrite (isnil_app_r _ _ (announce_nonnil t ds plus)). reflexivity.
  Qed.

  Lemma step_lit buf t ds plus data rest :
    nocrlf t = true -> digits_ok ds -> blen (t ++ announce ds plus) <= rlimit c ->
    blen ds <= maxdigits c -> dec_val ds = blen data -> blen data <= maxin c ->
    run c buf (blen buf) (t ++ announce ds plus ++ CRLF ++ data ++ rest) =
      emits (if plus then [] else [Wr CONT])
        (let buf2 := buf ++ t ++ announce ds plus ++ CRLF ++ data in
         if blen buf2 >? maxin c then emit (Wr BAD_CMD) (run c [] 0 rest)
         else run c buf2 (blen buf2) rest).
  Proof.
    intros Hn Hd Hl Hm Hv Hs.
    rewrite (step_announce buf t ds plus (data ++ rest) Hn Hd Hl). unfold on_literal.
    rewrite (gtb_false _ _ Hm), Hv, (gtb_false _ _ Hs), readexactly_app, size_lit_eq. cbv zeta.
    rewrite <- !app_assoc. reflexivity.
  Qed.

  Lemma step_biglit buf t ds plus data rest :
    fix_resync c = true ->
    nocrlf t = true -> digits_ok ds -> blen (t ++ announce ds plus) <= rlimit c ->
    blen ds <= maxdigits c -> maxin c < dec_val ds ->
    (if plus then blen data = dec_val ds else data = []) ->
    run c buf (blen buf) (t ++ announce ds plus ++ CRLF ++ data ++ rest) = emit (Wr BAD_LIT) (run c [] 0 rest).
  Proof.
    intros Hf Hn Hd Hl Hm Hv Hp.
    rewrite (step_announce buf t ds plus (data ++ rest) Hn Hd Hl). unfold on_literal.
    rewrite (gtb_false _ _ Hm), (gtb_true _ _ Hv). unfold after_big_literal. rewrite Hf.
    destruct plus.
    - rewrite <- Hp, readexactly_app. reflexivity.
    - rewrite Hp. reflexivity.
  Qed.

  Lemma step_long buf l rest :
    nocrlf l = true -> rlimit c < blen l ->
    run c buf (blen buf) (l ++ CRLF ++ rest) = if fix_longline c then ([Wr BAD_LINE], Closed) else ([], Closed).
  Proof.
    intros Hn Hl. rewrite run_unfold. unfold body. rewrite (readuntil_line _ _ _ Hn), (gtb_true _ _ Hl). reflexivity.
  Qed.

  Lemma run_nil : 0 <= rlimit c -> run c [] 0 [] = ([], Eof).
  Proof.
    intros Hlim. rewrite (run_unfold c []). unfold body, readuntil_crlf. cbn [split_crlf].
    rewrite gtb_false; [reflexivity|]. rewrite blen_nil. lia.
  Qed.

  Lemma run_concat {A} (P : A -> Prop) (rend : A -> bytes) (evs : A -> list ev) :
    (forall x tl, P x -> run c [] 0 (rend x ++ tl) = emits (evs x) (run c [] 0 tl)) ->
    forall xs tail, Forall P xs ->
    run c [] 0 (List.concat (map rend xs) ++ tail) = emits (flat_map evs xs) (run c [] 0 tail).
  Proof.
    intros Hx xs tail. induction 1 as [|x xs Px _ IH]; cbn [map List.concat flat_map].
    - symmetry. apply emits_nil.
    - rewrite <- app_assoc, (Hx x _ Px), IH, emits_app. reflexivity.
  Qed.

  Lemma run_concat_eof {A} (P : A -> Prop) (rend : A -> bytes) (evs : A -> list ev) :
    0 <= rlimit c ->
    (forall x tl, P x -> run c [] 0 (rend x ++ tl) = emits (evs x) (run c [] 0 tl)) ->
    forall xs, Forall P xs -> frame_loop c (List.concat (map rend xs)) = (flat_map evs xs, Eof).
  Proof.
    intros Hlim Hx xs H. unfold frame_loop.
    rewrite <- (app_nil_r (List.concat _)), (run_concat P rend evs Hx xs [] H), (run_nil Hlim). apply emits_stop.
  Qed.
End Steps.

Lemma ctext_split t ls : ctext t ls = ctext_pre t ls ++ last_text t ls.
Proof.
  revert t. induction ls as [|l r IH]; intros t; cbn [ctext ctext_pre last_text]; [reflexivity|].
  rewrite IH, <- !app_assoc. reflexivity.
Qed.
Lemma denote_split cm : denote cm = ctext_pre (c_first cm) (c_lits cm) ++ last_text (c_first cm) (c_lits cm).
Proof. apply ctext_split. Qed.

Lemma lit_data_le l : lit_ok l -> blen (l_data l) = dec_val (l_digits l).
Proof. intros [_ H]. symmetry. exact H. Qed.

Section Commands.
  Variable c : cfg.
  Notation lines_ok := (lines_ok (rlimit c) (maxdigits c)).
  Notation wf_cmd := (wf_cmd (maxin c) (rlimit c) (maxdigits c)).
  Notation wf_prefix := (wf_prefix (maxin c) (rlimit c) (maxdigits c)).

  Lemma lits_run : forall ls buf t tail,
    lines_ok t ls -> blen (buf ++ ctext_pre t ls) <= maxin c ->
    run c buf (blen buf) (ctext_pre t ls ++ last_text t ls ++ tail) =
      emits (conts ls) (run c (buf ++ ctext_pre t ls) (blen (buf ++ ctext_pre t ls)) (last_text t ls ++ tail)).
  Proof.
    induction ls as [|l r IH]; intros buf t tail Hok Hsz; cbn [ctext_pre last_text conts flat_map app] in *.
    - rewrite emits_nil, app_nil_r. reflexivity.
    - destruct Hok as (Hn & Hl & [Hd Hv] & Hmd & Hr). rewrite <- !app_assoc.
      (* the sizes compared on the way are those of parts of the accumulated text *)
      rewrite (step_lit c buf t _ _ _ _ Hn Hd Hl Hmd Hv) by (revert Hsz; autorewrite with blen; unfold blen; lia).
      cbv zeta. rewrite gtb_false by (revert Hsz; autorewrite with blen; unfold blen; lia).
      rewrite (IH _ (l_text l) tail Hr), emits_app, <- !app_assoc; [reflexivity|].
      rewrite <- !app_assoc. exact Hsz.
  Qed.

  Lemma prefix_run cm tail :
    wf_prefix cm ->
    run c [] 0 (denote cm ++ tail) =
      emits (conts (c_lits cm))
        (run c (ctext_pre (c_first cm) (c_lits cm)) (blen (ctext_pre (c_first cm) (c_lits cm)))
           (last_text (c_first cm) (c_lits cm) ++ tail)).
  Proof. intros [Hok Hp]. rewrite denote_split, <- app_assoc. apply (lits_run _ [] _ _ Hok Hp). Qed.

  Lemma line_run cm tail :
    wf_prefix cm ->
    let t := last_text (c_first cm) (c_lits cm) in
    nocrlf t = true -> blen t <= rlimit c -> no_trailing_ws t -> ~ ends_in_announce t -> denote cm <> [] ->
    run c [] 0 (render cm ++ tail) =
      emits (conts (c_lits cm))
        (emit (if blen (denote cm) >? maxin c then Wr BAD_CMD else Msg (denote cm)) (run c [] 0 tail)).
  Proof.
    cbv zeta. intros Hp Hn Hl Hw Ha Hne. unfold render.
    rewrite <- app_assoc, (prefix_run _ _ Hp). rewrite denote_split in *.
    rewrite (step_last c _ _ tail Hn Hl Hw Ha Hne). destruct (_ >? maxin c); reflexivity.
  Qed.

  Lemma wf_cmd_prefix cm : wf_cmd cm -> wf_prefix cm.
  Proof.
    intros (Hok & _ & _ & _ & _ & _ & Hsz). split; [exact Hok|].
    revert Hsz. rewrite denote_split, blen_app.
    pose proof (blen_nonneg (last_text (c_first cm) (c_lits cm))). lia.
  Qed.

  (* this does not depend on any of the fixes *)
  Lemma cmd_run cm tail :
    wf_cmd cm -> run c [] 0 (render cm ++ tail) = emits (conts (c_lits cm) ++ [Msg (denote cm)]) (run c [] 0 tail).
  Proof.
    intros H. pose proof (wf_cmd_prefix _ H) as Hp. destruct H as (_ & Hn & Hl & Hw & Ha & Hne & Hsz).
    rewrite (line_run _ _ Hp Hn Hl Hw Ha Hne), (gtb_false _ _ Hsz), emits_app. reflexivity.
  Qed.

End Commands.

Lemma flat_map_flat_map {A B C} (f : B -> list C) (g : A -> list B) l :
  flat_map f (flat_map g l) = flat_map (fun x => flat_map f (g x)) l.
Proof. induction l as [|x l IH]; [reflexivity|]. cbn [flat_map]. rewrite flat_map_app, IH. reflexivity. Qed.

Lemma conts_msgs ls : flat_map (fun e => match e with Msg m => [m] | Wr _ => [] end) (conts ls) = [].
Proof.
  unfold conts. rewrite flat_map_flat_map. induction ls as [|l r IH]; [reflexivity|].
  cbn [flat_map]. rewrite IH. destruct (l_plus l); reflexivity.
Qed.

Lemma conts_writes ls :
  flat_map (fun e => match e with Wr w => [w] | Msg _ => [] end) (conts ls) = repeat CONT (sync_lits ls).
Proof.
  unfold conts, sync_lits. rewrite flat_map_flat_map. induction ls as [|l r IH]; [reflexivity|].
  cbn [flat_map filter]. rewrite IH. destruct (l_plus l); reflexivity.
Qed.

Lemma msgs_of_events items :
  flat_map (fun e => match e with Msg m => [m] | Wr _ => [] end) (flat_map item_events items) = commands_of items.
Proof.
  rewrite flat_map_flat_map. apply flat_map_ext.
  intros []; cbn [item_events]; rewrite ?flat_map_app, ?conts_msgs; reflexivity.
Qed.

Definition item_writes (i : item) : list bytes :=
  flat_map (fun e => match e with Wr w => [w] | Msg _ => [] end) (item_events i).

Section Stream.
  Variable c : cfg.
  Hypothesis Hfix : fix_resync c = true.
  Hypothesis Hlim : 0 <= rlimit c.

  Notation wf_cmd := (wf_cmd (maxin c) (rlimit c) (maxdigits c)).
  Notation wf_item := (wf_item (maxin c) (rlimit c) (maxdigits c)).

  Lemma denote_nonnil_buf cm : denote cm <> [] -> ctext_pre (c_first cm) (c_lits cm) ++ last_text (c_first cm) (c_lits cm) <> [].
  Proof. rewrite denote_split. auto. Qed.

  Lemma item_run i tail :
    wf_item i -> run c [] 0 (render_item i ++ tail) = emits (item_events i) (run c [] 0 tail).
  Proof.
    destruct i as [cm|w|cm ds plus data|cm l|cm]; cbn [wf_item render_item item_events].
    - apply cmd_run.
    - intros (Hw & Hn & Hl). rewrite <- app_assoc. apply (step_blank c w tail Hw Hn Hl).
    - (* an announcement over the limit *)
      intros (Hp & Hn & Hl & Hd & Hmd & Hv & Hdata).
      rewrite <- !app_assoc, (prefix_run c _ _ Hp), (step_biglit c _ _ ds plus data tail Hfix Hn Hd Hl Hmd Hv Hdata).
      rewrite emits_app. reflexivity.
    - (* accumulated size over the limit at a literal *)
      intros (Hp & Hn & Hl & [Hd Hval] & Hmd & Hv & Hbig). rewrite Hval in Hv.
      rewrite <- !app_assoc, (prefix_run c _ _ Hp).
      rewrite (step_lit c _ _ (l_digits l) (l_plus l) (l_data l) tail Hn Hd Hl Hmd Hval Hv). cbv zeta.
      rewrite denote_split, <- !app_assoc in Hbig. rewrite (gtb_true _ _ Hbig).
      rewrite !emits_app. cbn [conts flat_map]. rewrite app_nil_r. reflexivity.
    - (* the last line makes the command too large *)
      intros (Hp & Hn & Hl & Hw & Ha & Hne & Hbig).
      rewrite (line_run c _ _ Hp Hn Hl Hw Ha Hne), (gtb_true _ _ Hbig), emits_app. reflexivity.
  Qed.

  Theorem items_run items tail :
    Forall wf_item items ->
    run c [] 0 (List.concat (map render_item items) ++ tail) = emits (flat_map item_events items) (run c [] 0 tail).
  Proof. apply (run_concat c wf_item), item_run. Qed.

  Theorem items_run_eof : forall items,
    Forall wf_item items ->
    frame_loop c (List.concat (map render_item items)) = (flat_map item_events items, Eof).
  Proof. apply (run_concat_eof c wf_item _ _ Hlim), item_run. Qed.

  Lemma cmds_run_eof : forall cmds,
    Forall wf_cmd cmds ->
    frame_loop c (List.concat (map render cmds)) = (flat_map (fun cm => conts (c_lits cm) ++ [Msg (denote cm)]) cmds, Eof).
  Proof. apply (run_concat_eof c wf_cmd _ _ Hlim), cmd_run. Qed.

  Theorem long_line_closes items l rest :
    fix_longline c = true ->
    Forall wf_item items -> nocrlf l = true -> rlimit c < blen l ->
    frame_loop c (List.concat (map render_item items) ++ l ++ CRLF ++ rest) =
      (flat_map item_events items ++ [Wr BAD_LINE], Closed).
  Proof.
    intros Hf Hi Hn Hl. unfold frame_loop. rewrite (items_run _ _ Hi), (step_long c [] l rest Hn Hl : run c [] 0 _ = _), Hf.
    reflexivity.
  Qed.

  Theorem commands_exact : forall cmds,
    Forall wf_cmd cmds ->
    let o := frame_loop c (List.concat (map render cmds)) in
    msgs_of o = map denote cmds /\
    writes_of o = flat_map (fun cm => repeat CONT (sync_lits (c_lits cm))) cmds /\
    snd o = Eof.
  Proof.
    intros cmds H. cbv zeta. rewrite (cmds_run_eof _ H). unfold msgs_of, writes_of. cbn [fst snd].
    rewrite !flat_map_flat_map. split; [|split; [|reflexivity]].
    - clear. induction cmds as [|x r IH]; [reflexivity|].
      cbn [map flat_map]. rewrite flat_map_app, conts_msgs, IH. reflexivity.
    - apply flat_map_ext. intros cm. rewrite flat_map_app, conts_writes. apply app_nil_r.
  Qed.

  Theorem resync : forall items,
    Forall wf_item items ->
    let o := frame_loop c (List.concat (map render_item items)) in
    msgs_of o = commands_of items /\ writes_of o = flat_map item_writes items /\ snd o = Eof.
  Proof.
    intros items H. cbv zeta. rewrite (items_run_eof _ H). unfold msgs_of, writes_of. cbn [fst snd].
    rewrite msgs_of_events. repeat split. apply flat_map_flat_map.
  Qed.
End Stream.

Lemma dec_val_snoc a d : dec_val (a ++ [d]) = dec_val a * 10 + (d - 48).
Proof. unfold dec_val. rewrite fold_left_app. reflexivity. Qed.

Lemma dec_fuel_spec : forall f n acc, (1 <= f)%nat -> 0 <= n < 10 ^ Z.of_nat f ->
  exists ds, dec_fuel f n acc = ds ++ acc /\ digits_ok ds /\ dec_val ds = n.
Proof.
  induction f as [|f IH]; intros n acc Hf Hn; [lia|].
  cbn [dec_fuel]. destruct (n <? 10) eqn:E.
  - exists [48 + n]. split; [reflexivity|]. split.
    + split; [discriminate|]. repeat constructor. unfold is_digit. lia.
    + unfold dec_val. cbn [fold_left]. lia.
  - rewrite Nat2Z.inj_succ, Z.pow_succ_r in Hn by lia.
    destruct (IH (n / 10) ((48 + n mod 10) :: acc)) as (ds & E1 & [E2 E3] & E4).
    + destruct f; [cbn in Hn|]; lia.
    + Z.div_mod_to_equations. lia.
    + exists (ds ++ [48 + n mod 10]). split; [rewrite E1, <- app_assoc; reflexivity|]. split.
      * split; [intros E0; apply app_eq_nil in E0 as [_ E0]; discriminate E0|].
        apply Forall_app. split; [exact E3|]. repeat constructor. unfold is_digit. Z.div_mod_to_equations. lia.
      * rewrite dec_val_snoc, E4. Z.div_mod_to_equations. lia.
Qed.

Lemma dec_spec n : 0 <= n -> digits_ok (dec n) /\ dec_val (dec n) = n.
Proof.
  intros Hn. unfold dec.
  assert (Hb : 0 <= n < 10 ^ Z.of_nat (S (Z.to_nat (Z.log2 n)))).
  { split; [exact Hn|]. rewrite Nat2Z.inj_succ, Z2Nat.id by apply Z.log2_nonneg.
    destruct (Z.eq_dec n 0) as [->|Hne]; [cbn; lia|].
    pose proof (Z.log2_spec n ltac:(lia)) as [_ H2].
    eapply Z.lt_le_trans; [exact H2|].
    apply Z.pow_le_mono_l. lia. }
  destruct (dec_fuel_spec (S (Z.to_nat (Z.log2 n))) n [] ltac:(lia) Hb) as [ds [E1 [E2 E3]]].
  rewrite E1, app_nil_r. split; assumption.
Qed.

Lemma split_lf_app l r : Forall (fun x => x <> 10) l -> split_lf (l ++ 10 :: r) = Some (l, r).
Proof.
  induction 1 as [|x l Hx _ IH]; [reflexivity|].
  cbn [app split_lf]. rewrite IH. replace (x =? 10) with false by lia. reflexivity.
Qed.

Lemma frame_shape m : frame m = announce (dec (blen m)) false ++ 10 :: m.
Proof. unfold frame, announce. rewrite <- !app_assoc. reflexivity. Qed.

Lemma re_search_header ds : digits_ok ds -> re_search (announce ds false ++ [10]) = Some (ds, false).
Proof.
  intros H. unfold re_search. rewrite rev_app_distr. cbn [rev app]. change (10 =? 10) with true. cbv iota.
  apply (lit_match_rev_announce [] ds false H).
Qed.

Lemma deframe_frame mx f first m rest :
  blen m <= mx -> (first && bytes_eqb m POP3_MARK = false) ->
  deframe_loop mx (S f) first (frame m ++ rest) =
    let (ms, st) := deframe_loop mx f false rest in (m :: ms, st).
Proof.
  intros Hm Hp. cbn [deframe_loop]. rewrite frame_shape, <- app_assoc. cbn [app].
  destruct (dec_spec (blen m) (blen_nonneg m)) as [Hd Hv].
  rewrite (split_lf_app _ _ (announce_no10 _ false Hd)).
  rewrite (re_search_header _ Hd), Hv, (gtb_false _ _ Hm), readexactly_app, Hp. reflexivity.
Qed.

Lemma deframe_frames mx : forall ms f first,
  (List.length ms <= f)%nat -> Forall (fun m => blen m <= mx) ms ->
  (first = true -> match ms with m :: _ => bytes_eqb m POP3_MARK = false | [] => True end) ->
  deframe_loop mx (S f) first (List.concat (map frame ms)) = (ms, DEof).
Proof.
  induction ms as [|m ms IH]; intros f first Hf Hall Hp; [reflexivity|].
  cbn [map List.concat]. inversion Hall as [|? ? Hm Hms]; subst.
  rewrite deframe_frame; [|exact Hm|destruct first; [apply Hp; reflexivity|reflexivity]].
  destruct f as [|f]; [inversion Hf|]. rewrite IH; [reflexivity|cbn in Hf; lia|exact Hms|discriminate].
Qed.

Lemma frames_length ms : (List.length ms <= List.length (List.concat (map frame ms)))%nat.
Proof.
  induction ms as [|m ms IH]; [cbn; lia|]. cbn [map List.concat List.length]. rewrite app_length.
  unfold frame at 1. cbn [app List.length]. lia.
Qed.

Theorem deframe_inverse mx ms :
  Forall (fun m => blen m <= mx) ms ->
  match ms with m :: _ => bytes_eqb m POP3_MARK = false | [] => True end ->
  deframe mx (List.concat (map frame ms)) = (ms, DEof).
Proof.
  intros H Hp. unfold deframe. apply deframe_frames; [apply frames_length|exact H|intros _; exact Hp].
Qed.

Theorem ipc_roundtrip c s :
  match msgs_of (frame_loop c s) with m :: _ => bytes_eqb m POP3_MARK = false | [] => True end ->
  deframe (maxin c) (List.concat (map frame (msgs_of (frame_loop c s)))) = (msgs_of (frame_loop c s), DEof).
Proof.
  intros Hp. apply deframe_inverse; [|exact Hp].
  pose proof (msgs_of_good c _ (frame_loop_good c s)) as H.
  eapply Forall_impl; [|exact H]. intros m [_ Hm]. exact Hm.
Qed.

Section Relay.
  Variable lim : Z.
  Hypothesis Hlim : 0 <= lim.

  Lemma relay_loop_line fx f l rest :
    nocrlf l = true ->
    relay_loop lim fx (S f) (l ++ CRLF ++ rest) =
      if blen l >? lim then
        if fx then let (o, st) := relay_loop lim fx f (CRLF ++ rest) in (l :: o, st) else ([], Closed)
      else let (o, st) := relay_loop lim fx f rest in ((l ++ CRLF) :: o, st).
  Proof.
    intros Hn. cbn [relay_loop]. rewrite isnil_app_r by discriminate. rewrite (split_crlf_app _ _ Hn). reflexivity.
  Qed.

  Lemma relay_lines ls :
    Forall (fun l => nocrlf l = true) ls -> forall f, (List.length (render_lines ls) < f)%nat ->
    exists o, relay_loop lim true f (render_lines ls) = (o, Eof) /\ List.concat o = render_lines ls.
  Proof.
    unfold render_lines. induction 1 as [|l ls Hl _ IH]; intros [|f] Hf; try lia.
    - exists []. split; reflexivity.
    - cbn [map List.concat] in *. rewrite <- app_assoc in *. rewrite (relay_loop_line true f l _ Hl).
      rewrite !app_length in Hf. cbn [List.length CRLF] in Hf.
      destruct (blen l >? lim) eqn:El.
      + (* an over-long run is passed on without its CRLF, which the next iteration reads as an
           empty line: two iterations, and the run is at least one octet long *)
        unfold blen in El. destruct f as [|f]; [lia|].
        rewrite (relay_loop_line true f [] _ eq_refl : relay_loop _ _ _ (CRLF ++ _) = _), blen_nil, (gtb_false _ _ Hlim).
        destruct (IH f) as (o & E & Eo); [lia|]. rewrite E. exists (l :: CRLF :: o).
        split; [reflexivity|]. cbn [List.concat app]. rewrite Eo. reflexivity.
      + destruct (IH f) as (o & E & Eo); [lia|]. rewrite E. exists ((l ++ CRLF) :: o).
        split; [reflexivity|]. cbn [List.concat]. rewrite Eo, <- app_assoc. reflexivity.
  Qed.

  (* the text of a chunk may be longer than lim *)
  Theorem relay_identity : forall ls,
    Forall (fun l => nocrlf l = true) ls ->
    List.concat (fst (relay lim true (render_lines ls))) = render_lines ls /\ snd (relay lim true (render_lines ls)) = Eof.
  Proof.
    intros ls H. unfold relay. destruct (relay_lines ls H (S (List.length (render_lines ls)))) as (o & E & Eo); [lia|].
    rewrite E. split; [exact Eo|reflexivity].
  Qed.
End Relay.

Theorem relay_prefix lim : forall f s, exists tail, s = List.concat (fst (relay_loop lim true f s)) ++ tail.
Proof.
  induction f as [|f IH]; intros s; [exists s; reflexivity|].
  cbn [relay_loop]. destruct (isnil s); [exists s; reflexivity|].
  destruct (split_crlf s) as [[l r]|] eqn:E; [|exists s; reflexivity].
  apply split_crlf_spec in E. subst s. destruct (blen l >? lim).
  - destruct (IH (CRLF ++ r)) as [tail Ht]. destruct (relay_loop lim true f (CRLF ++ r)) as [o st].
    exists tail. cbn [fst List.concat] in *. rewrite <- app_assoc, <- Ht. reflexivity.
  - destruct (IH r) as [tail Ht]. destruct (relay_loop lim true f r) as [o st].
    exists tail. cbn [fst List.concat] in *. rewrite <- !app_assoc, <- Ht. reflexivity.
Qed.

Lemma rstrip_fix_ok t : rstrip t = t -> no_trailing_ws t.
Proof. intros H. rewrite <- H. apply rstrip_stripped. Qed.

Lemma lit_match_none_ok t : lit_match t = None -> ~ ends_in_announce t.
Proof.
  intros H (pre & ds & plus & E & Hd). subst t. unfold lit_match in H.
  rewrite (lit_match_rev_announce pre ds plus Hd) in H. discriminate H.
Qed.

Lemma bytes_eqb_eq a : forall b, bytes_eqb a b = true -> a = b.
Proof.
  induction a as [|x a IH]; intros [|y b] H; try discriminate H; [reflexivity|].
  cbn [bytes_eqb] in H. apply andb_true_iff in H as [->%Z.eqb_eq H%IH]. rewrite H. reflexivity.
Qed.

(* a boolean version of the well-formedness conditions, sound for them: used for the examples, and
   by harness/props/c19.py to check that a generated stream is in the domain of the theorems *)
Definition digitsb (ds : bytes) : bool := negb (isnil ds) && forallb is_digit ds.
Definition lit_okb (l : lit) : bool := digitsb (l_digits l) && (dec_val (l_digits l) =? blen (l_data l)).
Fixpoint lines_okb (lim md : Z) (t : bytes) (ls : list lit) : bool :=
  match ls with
  | [] => true
  | l :: r => nocrlf t && (blen (t ++ announce (l_digits l) (l_plus l)) <=? lim) && lit_okb l &&
              (blen (l_digits l) <=? md) && lines_okb lim md (l_text l) r
  end.
Definition lastb (lim : Z) (t : bytes) : bool :=
  nocrlf t && (blen t <=? lim) && bytes_eqb (rstrip t) t && match lit_match t with None => true | Some _ => false end.
Definition wf_cmdb (mx lim md : Z) (c : cmd) : bool :=
  lines_okb lim md (c_first c) (c_lits c) && lastb lim (last_text (c_first c) (c_lits c)) &&
  negb (isnil (denote c)) && (blen (denote c) <=? mx).
Definition wf_prefixb (mx lim md : Z) (c : cmd) : bool :=
  lines_okb lim md (c_first c) (c_lits c) && (blen (ctext_pre (c_first c) (c_lits c)) <=? mx).
Definition wf_itemb (mx lim md : Z) (i : item) : bool :=
  match i with
  | ICmd c => wf_cmdb mx lim md c
  | IBlank w => forallb is_ws w && nocrlf w && (blen w <=? lim)
  | IBigLit c ds plus data =>
      let t := last_text (c_first c) (c_lits c) in
      wf_prefixb mx lim md c && nocrlf t && (blen (t ++ announce ds plus) <=? lim) && digitsb ds &&
      (blen ds <=? md) && (mx <? dec_val ds) && (if plus then blen data =? dec_val ds else isnil data)
  | IBigAcc c l =>
      let t := last_text (c_first c) (c_lits c) in
      wf_prefixb mx lim md c && nocrlf t && (blen (t ++ announce (l_digits l) (l_plus l)) <=? lim) && lit_okb l &&
      (blen (l_digits l) <=? md) && (dec_val (l_digits l) <=? mx) &&
      (mx <? blen (denote c ++ announce (l_digits l) (l_plus l) ++ CRLF ++ l_data l))
  | IBigLine c =>
      wf_prefixb mx lim md c && lastb lim (last_text (c_first c) (c_lits c)) &&
      negb (isnil (denote c)) && (mx <? blen (denote c))
  end.

Lemma forallb_Forall {A} (f : A -> bool) l : forallb f l = true -> Forall (fun x => f x = true) l.
Proof. intros H. apply Forall_forall, forallb_forall, H. Qed.

Lemma digitsb_ok ds : digitsb ds = true -> digits_ok ds.
Proof. unfold digitsb. rewrite andb_true_iff. intros [H1%isnil_negb H2%forallb_Forall]. exact (conj H1 H2). Qed.
Lemma lit_okb_ok l : lit_okb l = true -> lit_ok l.
Proof. unfold lit_okb. rewrite andb_true_iff, Z.eqb_eq. intros [H1%digitsb_ok H2]. exact (conj H1 H2). Qed.
Lemma lines_okb_ok lim md : forall ls t, lines_okb lim md t ls = true -> lines_ok lim md t ls.
Proof.
  induction ls as [|l r IH]; intros t; cbn [lines_okb lines_ok]; [exact (fun _ => I)|].
  rewrite !andb_true_iff, !Z.leb_le. pose proof (lit_okb_ok l). pose proof (IH (l_text l)). tauto.
Qed.
Lemma lastb_ok lim t : lastb lim t = true ->
  nocrlf t = true /\ blen t <= lim /\ no_trailing_ws t /\ ~ ends_in_announce t.
Proof.
  unfold lastb. rewrite !andb_true_iff, Z.leb_le.
  intros [[[H1 H2] H3%bytes_eqb_eq%rstrip_fix_ok] H4].
  refine (conj H1 (conj H2 (conj H3 (lit_match_none_ok _ _)))). destruct (lit_match t); [discriminate H4|reflexivity].
Qed.
Lemma wf_prefixb_ok mx lim md c : wf_prefixb mx lim md c = true -> wf_prefix mx lim md c.
Proof. unfold wf_prefixb. rewrite andb_true_iff, Z.leb_le. intros [H1%lines_okb_ok H2]. exact (conj H1 H2). Qed.

Lemma wf_cmdb_ok mx lim md c : wf_cmdb mx lim md c = true -> wf_cmd mx lim md c.
Proof.
  unfold wf_cmdb, wf_cmd. rewrite !andb_true_iff, Z.leb_le.
  pose proof (lines_okb_ok lim md (c_lits c) (c_first c)). pose proof (lastb_ok lim (last_text (c_first c) (c_lits c))).
  pose proof (isnil_negb (denote c)). tauto.
Qed.

Lemma wf_itemb_ok mx lim md i : wf_itemb mx lim md i = true -> wf_item mx lim md i.
Proof.
  destruct i as [c|w|c ds plus data|c l|c]; cbn [wf_itemb wf_item]; [apply wf_cmdb_ok|..];
    rewrite !andb_true_iff, ?Z.leb_le, ?Z.ltb_lt.
  - pose proof (forallb_Forall is_ws w). tauto.
  - pose proof (wf_prefixb_ok mx lim md c). pose proof (digitsb_ok ds).
    destruct plus; [rewrite Z.eqb_eq|rewrite isnil_true_iff]; tauto.
  - pose proof (wf_prefixb_ok mx lim md c). pose proof (lit_okb_ok l). tauto.
  - pose proof (wf_prefixb_ok mx lim md c). pose proof (lastb_ok lim (last_text (c_first c) (c_lits c))).
    pose proof (isnil_negb (denote c)). tauto.
Qed.

Lemma wf_itemsb_ok mx lim md is : forallb (wf_itemb mx lim md) is = true -> Forall (wf_item mx lim md) is.
Proof. intros H. eapply Forall_impl; [|exact (forallb_Forall _ _ H)]. apply wf_itemb_ok. Qed.

Definition B := bytes_of_string.
Definition cmd0 (s : string) : cmd := {| c_first := B s; c_lits := [] |}.

(* non-vacuity: a LOGIN with a synchronising and a non-synchronising literal whose octets contain
   CRLF and look like a command; a blank line; an APPEND refused for its 50-octet LITERAL+ whose
   octets look like commands; a NOOP.  limit 40. *)
Definition ex_login : cmd :=
  {| c_first := B "a1 LOGIN ";
     c_lits := [ {| l_digits := B "3"; l_plus := false; l_data := B "bob"; l_text := B " " |};
                 {| l_digits := B "0010"; l_plus := true; l_data := [13; 10] ++ B "z LOGOUT"; l_text := [] |} ] |}.
Definition ex_big : bytes := B "0123456789" ++ [13; 10] ++ B "z9 LOGOUT" ++ [13; 10] ++ B "{3}" ++ [13; 10] ++ B "abcdefghijklmnopqrstuv".
Definition ex_items : list item :=
  [ ICmd ex_login; IBlank (B " "); IBigLit (cmd0 "a2 APPEND x ") (B "50") true ex_big; ICmd (cmd0 "a3 NOOP") ].

Lemma ex_items_wf : Forall (wf_item 40 65536 4300) ex_items.
Proof. apply wf_itemsb_ok. vm_compute. reflexivity. Qed.

Lemma ex_items_run :
  frame_loop (fixed_cfg 40 65536) (List.concat (map render_item ex_items)) =
    ([Wr CONT; Msg (denote ex_login); Wr BAD_EMPTY; Wr BAD_LIT; Msg (B "a3 NOOP")], Eof).
Proof. vm_compute. reflexivity. Qed.

(* the pinned tree (no fixes/C19-*.patch): DESIGN 2.3, D15.  limit 20. *)
Definition d15_items : list item :=
  [ IBigLit (cmd0 "a1 LOGIN u ") (B "50") false []; ICmd (cmd0 "a2 NOOP"); ICmd (cmd0 "a3 NOOP") ].

Theorem resync_refuted_pinned :
  exists items, Forall (wf_item 20 65536 4300) items /\
    msgs_of (frame_loop (pinned_cfg 20) (List.concat (map render_item items))) <> commands_of items.
Proof. exists d15_items. split; [apply wf_itemsb_ok; vm_compute; reflexivity|]. vm_compute. discriminate. Qed.

(* the pinned tree: octets of a refused LITERAL+ are handed on as a command *)
Definition inj_items : list item :=
  [ IBigLit (cmd0 "a1 APPEND x ") (B "30") true (B "xx" ++ [13; 10] ++ B "z9 LOGOUT" ++ [13; 10] ++ B "0123456789abcde") ].
Theorem literal_injection_pinned :
  exists items, Forall (wf_item 20 65536 4300) items /\ commands_of items = [] /\
    In (B "z9 LOGOUT") (msgs_of (frame_loop (pinned_cfg 20) (List.concat (map render_item items)))).
Proof.
  exists inj_items. split; [apply wf_itemsb_ok; vm_compute; reflexivity|]. split; [reflexivity|vm_compute; left; reflexivity].
Qed.

(* the pinned tree: a response chunk longer than the reader's limit stops the relay *)
Theorem relay_refuted_pinned :
  exists lim ls, 0 <= lim /\ Forall (fun l => nocrlf l = true) ls /\
    List.concat (fst (relay lim false (render_lines ls))) <> render_lines ls.
Proof.
  exists 4, [B "* 1 FETCH"; B "a1 OK"]. split; [lia|]. split; [repeat constructor|]. vm_compute. discriminate.
Qed.

(* the pinned tree: a line beyond the reader's limit drops the connection without a BAD *)
Theorem long_line_pinned :
  frame_loop {| maxin := 64; rlimit := 8; maxdigits := 4300; fix_resync := false; fix_longline := false |}
    (B "a1 NOOP" ++ CRLF ++ B "a2 FETCH 1:* FLAGS" ++ CRLF ++ B "a3 NOOP" ++ CRLF) = ([Msg (B "a1 NOOP")], Closed).
Proof. vm_compute. reflexivity. Qed.
