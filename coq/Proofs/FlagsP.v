(* Proofs/FlagsP.v — C04: STORE semantics on the MH sequence sets of Model/Mbox.v refine the
   reference (set union / difference / replacement), \Seen and `unseen` stay exact complements,
   \Recent cannot be set or cleared by STORE, and flags <-> sequence names is a bijection outside
   the reserved spellings.  Bridge to the generated constants.flag_to_seq / seq_to_flag. *)
From Asimap Require Import Base.Res Model.Mbox.
From Asimap Require Gen.Flags.
Local Open Scope Z_scope.
Local Open Scope string_scope.

Lemma smem_sadd x y l : smem x (sadd y l) = String.eqb x y || smem x l.
Proof.
  unfold sadd. destruct (smem y l) eqn:E.
  - destruct (String.eqb_spec x y) as [->|_]; [rewrite E|]; reflexivity.
  - unfold smem. rewrite existsb_app. cbn [existsb]. rewrite orb_false_r. apply orb_comm.
Qed.
Lemma smem_srem x y l : smem x (srem y l) = negb (String.eqb x y) && smem x l.
Proof.
  unfold srem, smem. induction l as [|z l IH]; cbn [filter existsb]; [symmetry; apply andb_false_r|].
  destruct (String.eqb_spec y z) as [<-|N]; cbn [negb existsb]; rewrite IH.
  - destruct (String.eqb x y); reflexivity.
  - destruct (String.eqb_spec x z) as [->|_]; [|destruct (String.eqb x y); reflexivity].
    rewrite (proj2 (String.eqb_neq z y)) by congruence. reflexivity.
Qed.

Lemma smem_In x l : In x l -> smem x l = true.
Proof. intros H. apply existsb_exists. exists x. split; [exact H|apply String.eqb_refl]. Qed.

(* the reference: what STORE does to the set of a message, marker `unseen` aside *)
Definition ref_store (act : staction) (fl seqs : list string) (x : string) : bool :=
  match act with
  | Add => smem x fl || smem x seqs
  | Remove => smem x seqs && negb (smem x fl)
  | Replace => smem x fl || (String.eqb x "Recent" && smem x seqs)
  end.

Lemma help_add_mem seqs f x : x <> "unseen" -> f <> "unseen" ->
  smem x (help_add seqs f) = String.eqb x f || smem x seqs.
Proof.
  intros Hx Hf. unfold help_add. destruct (String.eqb f "Seen") eqn:E.
  - rewrite smem_srem, smem_sadd. apply String.eqb_neq in Hx. rewrite Hx. reflexivity.
  - destruct (String.eqb f "unseen") eqn:E2; [apply String.eqb_eq in E2; congruence|]. apply smem_sadd.
Qed.
Lemma help_remove_mem seqs f x : x <> "unseen" -> f <> "unseen" ->
  smem x (help_remove seqs f) = negb (String.eqb x f) && smem x seqs.
Proof.
  intros Hx Hf. unfold help_remove. destruct (String.eqb f "Seen") eqn:E.
  - rewrite smem_sadd, smem_srem. apply String.eqb_neq in Hx. rewrite Hx. reflexivity.
  - destruct (String.eqb f "unseen") eqn:E2; [apply String.eqb_eq in E2; congruence|]. apply smem_srem.
Qed.

Lemma fold_adds_mem (h : list string -> string -> list string) x fl :
  (forall s f, In f fl -> smem x (h s f) = String.eqb x f || smem x s) ->
  forall s, smem x (fold_left h fl s) = smem x fl || smem x s.
Proof.
  induction fl as [|f fl IH]; intros Hh s; cbn [fold_left]; [reflexivity|].
  rewrite IH by (intros; apply Hh; right; assumption). rewrite Hh by (left; reflexivity).
  cbn [smem existsb]. fold (smem x fl). destruct (String.eqb x f), (smem x fl); reflexivity.
Qed.
Lemma fold_removes_mem (h : list string -> string -> list string) x fl :
  (forall s f, In f fl -> smem x (h s f) = negb (String.eqb x f) && smem x s) ->
  forall s, smem x (fold_left h fl s) = smem x s && negb (smem x fl).
Proof.
  induction fl as [|f fl IH]; intros Hh s; cbn [fold_left]; [symmetry; apply andb_true_r|].
  rewrite IH by (intros; apply Hh; right; assumption). rewrite Hh by (left; reflexivity).
  cbn [smem existsb]. fold (smem x fl).
  destruct (String.eqb x f), (smem x fl), (smem x s); reflexivity.
Qed.

Lemma help_replace_mem seqs fl x :
  smem x (help_replace seqs fl) =
  smem x fl || (String.eqb x "unseen" && negb (smem "Seen" fl))
            || (String.eqb x "Recent" && smem "Recent" seqs).
Proof.
  unfold help_replace. set (new0 := fold_left (fun a f => sadd f a) fl []).
  assert (H0 : forall y, smem y new0 = smem y fl)
    by (intros y; unfold new0; rewrite (fold_adds_mem (fun a f => sadd f a)) by (intros; apply smem_sadd);
        apply orb_false_r).
  destruct (smem "Recent" seqs); [rewrite smem_sadd|]; rewrite (H0 "Seen");
    (destruct (smem "Seen" fl); [|rewrite smem_sadd]); rewrite H0;
    destruct (String.eqb x "unseen"), (String.eqb x "Recent"), (smem x fl); reflexivity.
Qed.

Theorem store_refines act fl m x :
  x <> "unseen" -> smem "unseen" fl = false ->
  smem x (m_seqs (apply_store act fl m)) = ref_store act fl (m_seqs m) x.
Proof.
  intros Hx Hu.
  assert (Hfl : forall f, In f fl -> f <> "unseen")
    by (intros f Hf ->; rewrite (smem_In _ _ Hf) in Hu; discriminate Hu).
  destruct act; cbn [apply_store m_seqs ref_store].
  - rewrite help_replace_mem. apply String.eqb_neq in Hx. rewrite Hx.
    destruct (smem x fl); destruct (String.eqb_spec x "Recent") as [->|_]; reflexivity.
  - apply fold_adds_mem. intros s f Hf. apply help_add_mem; auto.
  - apply fold_removes_mem. intros s f Hf. apply help_remove_mem; auto.
Qed.

Definition cpl (seqs : list string) : Prop := smem "Seen" seqs = negb (smem "unseen" seqs).

Lemma cpl_sadd f s :
  String.eqb f "Seen" = false -> String.eqb f "unseen" = false -> cpl s -> cpl (sadd f s).
Proof.
  unfold cpl. intros E1 E2 H.
  rewrite !smem_sadd, (String.eqb_sym _ f), E1, (String.eqb_sym _ f), E2. exact H.
Qed.
Lemma cpl_srem f s :
  String.eqb f "Seen" = false -> String.eqb f "unseen" = false -> cpl s -> cpl (srem f s).
Proof.
  unfold cpl. intros E1 E2 H.
  rewrite !smem_srem, (String.eqb_sym _ f), E1, (String.eqb_sym _ f), E2. exact H.
Qed.

(* setting one of the two clears the other, and the other way round: whatever was there before *)
Lemma help_add_cpl seqs f : cpl seqs -> cpl (help_add seqs f).
Proof.
  unfold help_add. intros H. destruct (String.eqb f "Seen") eqn:E1.
  - apply String.eqb_eq in E1 as ->. unfold cpl. rewrite !smem_srem, !smem_sadd. reflexivity.
  - destruct (String.eqb f "unseen") eqn:E2; [|apply cpl_sadd; assumption].
    apply String.eqb_eq in E2 as ->. unfold cpl. rewrite !smem_srem, !smem_sadd. reflexivity.
Qed.
Lemma help_remove_cpl seqs f : cpl seqs -> cpl (help_remove seqs f).
Proof.
  unfold help_remove. intros H. destruct (String.eqb f "Seen") eqn:E1.
  - apply String.eqb_eq in E1 as ->. unfold cpl. rewrite !smem_sadd, !smem_srem. reflexivity.
  - destruct (String.eqb f "unseen") eqn:E2; [|apply cpl_srem; assumption].
    apply String.eqb_eq in E2 as ->. unfold cpl. rewrite !smem_sadd, !smem_srem. reflexivity.
Qed.
Lemma fold_cpl (h : list string -> string -> list string) fl :
  (forall s f, cpl s -> cpl (h s f)) -> forall seqs, cpl seqs -> cpl (fold_left h fl seqs).
Proof. intros Hh. induction fl as [|f fl IH]; intros seqs H; cbn [fold_left]; [exact H|]. apply IH. apply Hh. exact H. Qed.

Theorem store_keeps_complement act fl m :
  smem "unseen" fl = false -> cpl (m_seqs m) -> cpl (m_seqs (apply_store act fl m)).
Proof.
  intros Hu H. destruct act; cbn [apply_store m_seqs].
  - unfold cpl. rewrite !help_replace_mem, Hu. cbn [String.eqb Ascii.eqb Bool.eqb andb orb].
    destruct (smem "Seen" fl); reflexivity.
  - apply fold_cpl; [intros; apply help_add_cpl; trivial|exact H].
  - apply fold_cpl; [intros; apply help_remove_cpl; trivial|exact H].
Qed.

Theorem store_keeps_recent act fl m :
  smem "Recent" fl = false -> smem "unseen" fl = false ->
  smem "Recent" (m_seqs (apply_store act fl m)) = smem "Recent" (m_seqs m).
Proof.
  intros Hr Hu. rewrite store_refines by (trivial; discriminate).
  destruct act; cbn [ref_store]; rewrite Hr; cbn [orb]; [reflexivity|reflexivity|apply andb_true_r].
Qed.

(* Both maps of constants.py are d.get(k, k) on SYSTEM_FLAG_MAP, read one way or the other. *)
Definition get_or_self (d : list (string * string)) (k : string) : string :=
  if dict_mem d k then dict_get "" d k else k.
Definition swap (d : list (string * string)) : list (string * string) :=
  map (fun p => (snd p, fst p)) d.
Fixpoint distinct (l : list string) : bool :=
  match l with [] => true | x :: t => negb (smem x t) && distinct t end.

Lemma get_or_self_cons k0 v0 d k :
  get_or_self ((k0, v0) :: d) k = if String.eqb k k0 then v0 else get_or_self d k.
Proof. unfold get_or_self. cbn [dict_mem dict_get]. destruct (String.eqb k k0); reflexivity. Qed.

Lemma get_or_self_swap d k :
  get_or_self (swap d) k = k \/ In (get_or_self (swap d) k) (map fst d).
Proof.
  induction d as [|[a b] d IH]; [left; reflexivity|]. cbn [swap map fst snd]. fold (swap d).
  rewrite get_or_self_cons. destruct (String.eqb k b); [right; left; reflexivity|].
  destruct IH as [IH|IH]; [left; exact IH|right; right; exact IH].
Qed.

Lemma get_or_self_roundtrip d k :
  distinct (map fst d) = true -> smem k (map fst d) = false ->
  get_or_self d (get_or_self (swap d) k) = k.
Proof.
  induction d as [|[a b] d IH]; [reflexivity|]. cbn [swap map fst snd distinct smem existsb].
  fold (swap d) (smem k (map fst d)). intros Hd Hk.
  apply andb_prop in Hd as [Ha Hd]. apply negb_true_iff in Ha. apply orb_false_elim in Hk as [Hka Hk].
  rewrite !get_or_self_cons. destruct (String.eqb_spec k b) as [->|_].
  - rewrite String.eqb_refl. reflexivity.
  - rewrite (IH Hd Hk).
    destruct (String.eqb_spec (get_or_self (swap d) k) a) as [E|_]; [exfalso|reflexivity].
    destruct (get_or_self_swap d k) as [E'|Hin].
    + apply String.eqb_neq in Hka. congruence.
    + rewrite E in Hin. apply smem_In in Hin. congruence.
Qed.

(* the hand model of the two maps IS the generated one (constants.py) *)
Theorem gen_flag_to_seq f : Gen.Flags.flag_to_seq f = flag_to_seq f.
Proof.
  change (get_or_self (swap Gen.Flags.SYSTEM_FLAG_MAP) f = flag_to_seq f).
  unfold Gen.Flags.SYSTEM_FLAG_MAP. cbn [swap map fst snd]. rewrite !get_or_self_cons. reflexivity.
Qed.
Theorem gen_seq_to_flag s : Gen.Flags.seq_to_flag s = seq_to_flag s.
Proof.
  change (get_or_self Gen.Flags.SYSTEM_FLAG_MAP s = seq_to_flag s).
  unfold Gen.Flags.SYSTEM_FLAG_MAP. rewrite !get_or_self_cons. reflexivity.
Qed.

Lemma reserved_kw_keys f :
  reserved_kw f = smem f (map fst Gen.Flags.SYSTEM_FLAG_MAP) || String.eqb f "unseen"
                  || str_has unstorable_char f.
Proof.
  unfold reserved_kw.
  change (smem f _) with (existsb (String.eqb f) (map fst Gen.Flags.SYSTEM_FLAG_MAP ++ ["unseen"])) at 1.
  rewrite existsb_app. cbn [existsb]. rewrite orb_false_r. apply orb_comm.
Qed.

Theorem gen_reserved : forall k, In k (map fst Gen.Flags.SYSTEM_FLAG_MAP) -> reserved_kw k = true.
Proof. intros k H. rewrite reserved_kw_keys, (smem_In _ _ H). reflexivity. Qed.

(* only the sequence names themselves do not come back: the marker, and the names that
   .mh_sequences cannot hold, are refused for other reasons *)
Lemma flag_seq_roundtrip_keys f :
  smem f (map fst Gen.Flags.SYSTEM_FLAG_MAP) = false -> seq_to_flag (flag_to_seq f) = f.
Proof.
  intros H. rewrite <- gen_flag_to_seq, <- gen_seq_to_flag.
  exact (get_or_self_roundtrip Gen.Flags.SYSTEM_FLAG_MAP f eq_refl H).
Qed.

Lemma flag_seq_roundtrip f : reserved_kw f = false -> seq_to_flag (flag_to_seq f) = f.
Proof.
  rewrite reserved_kw_keys. intros H. apply orb_false_elim in H as [H _]. apply orb_false_elim in H as [H _].
  apply flag_seq_roundtrip_keys, H.
Qed.

Theorem flag_to_seq_injective f1 f2 :
  reserved_kw f1 = false -> reserved_kw f2 = false -> flag_to_seq f1 = flag_to_seq f2 -> f1 = f2.
Proof. intros H1 H2 E. rewrite <- (flag_seq_roundtrip f1 H1), <- (flag_seq_roundtrip f2 H2), E. reflexivity. Qed.
