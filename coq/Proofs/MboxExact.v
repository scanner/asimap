(* Proofs/MboxExact.v — C05: exactly the addressed messages are removed / copied; read-only
   sessions change nothing; C13: deliveries are appended with fresh UIDs. *)
From Asimap Require Import Base.Res Spec.SetSem Model.Mbox Proofs.MboxInv Proofs.MboxStep.
From Coq Require Import Sorting.Sorted.
Open Scope Z_scope.

(* [expunge_loop] on the message list alone; the positions ps are counted from pos *)
Definition rm_from (pos : Z) (ps : list Z) (l : list msg) : list msg :=
  fold_left (fun l p => remove_at (Z.to_nat (p - pos)) l) ps l.

Lemma rm_from_app pos a b l : rm_from pos (a ++ b) l = rm_from pos b (rm_from pos a l).
Proof. unfold rm_from. apply fold_left_app. Qed.

Lemma positions_desc_acc del l : forall pos acc, positions_desc del l pos acc = positions_desc del l pos [] ++ acc.
Proof.
  induction l as [|m l IH]; intros pos acc; cbn [positions_desc]; [reflexivity|].
  rewrite IH. rewrite (IH (pos + 1) (if del m then [pos] else [])). rewrite <- app_assoc.
  destruct (del m); reflexivity.
Qed.

Lemma positions_desc_ge del l : forall pos, Forall (fun p => pos <= p) (positions_desc del l pos []).
Proof.
  induction l as [|m l IH]; intros pos; cbn [positions_desc]; [constructor|].
  rewrite positions_desc_acc. apply Forall_app; split.
  - eapply Forall_impl; [|apply IH]. cbv beta. intros; lia.
  - destruct (del m); [constructor; [lia|constructor]|constructor].
Qed.

Lemma rm_from_cons pos ps x l :
  Forall (fun p => pos + 1 <= p) ps -> rm_from pos ps (x :: l) = x :: rm_from (pos + 1) ps l.
Proof.
  revert l; induction ps as [|p ps IH]; intros l H; [reflexivity|].
  inversion H as [|? ? Hp Hps]; subst. unfold rm_from. cbn [fold_left]. fold (rm_from pos ps) (rm_from (pos + 1) ps).
  replace (Z.to_nat (p - pos)) with (S (Z.to_nat (p - (pos + 1)))) by lia. cbn [remove_at]. apply IH. exact Hps.
Qed.

Lemma rm_positions del l : forall pos, rm_from pos (positions_desc del l pos []) l = filter (fun m => negb (del m)) l.
Proof.
  induction l as [|x l IH]; intros pos; [reflexivity|].
  cbn [positions_desc filter]. rewrite positions_desc_acc, rm_from_app.
  rewrite rm_from_cons by (apply positions_desc_ge). rewrite IH.
  destruct (del x); cbn [negb].
  - unfold rm_from. cbn [fold_left]. replace (Z.to_nat (pos - pos)) with O by lia. reflexivity.
  - reflexivity.
Qed.

Lemma expunge_loop_msgs ps : forall b i, b_msgs (fst (expunge_loop b ps i)) = rm_from 1 ps (b_msgs b).
Proof.
  induction ps as [|p ps IH]; intros b i; cbn [expunge_loop]; [reflexivity|]. rewrite !let_pair. cbn [fst].
  rewrite IH, (proj1 (dispatch_msgs _ _ _)). reflexivity.
Qed.

Theorem expunge_exact b del : b_msgs (fst (expunge b del)) = filter (fun m => negb (del m)) (b_msgs b).
Proof. unfold expunge. rewrite expunge_loop_msgs. apply rm_positions. Qed.

Lemma expunge_loop_rest ps : forall b i,
  b_next (fst (expunge_loop b ps i)) = b_next b /\ b_vv (fst (expunge_loop b ps i)) = b_vv b /\
  b_disk (fst (expunge_loop b ps i)) = b_disk b.
Proof.
  induction ps as [|p ps IH]; intros b i; cbn [expunge_loop]; [auto|]. rewrite !let_pair. cbn [fst].
  edestruct IH as [A [B C]]. rewrite A, B, C. edestruct dispatch_msgs as [_ [M2 [M3 M4]]]. rewrite M2, M3, M4. auto.
Qed.
Lemma expunge_rest b del :
  b_next (fst (expunge b del)) = b_next b /\ b_vv (fst (expunge b del)) = b_vv b /\ b_disk (fst (expunge b del)) = b_disk b.
Proof. exact (expunge_loop_rest _ b None). Qed.

(* [filed]: what [add_files] writes, the files numbered k, k+1, ... as MH.add numbers them; [number]: what the next resync
   makes of them ([assign_uids]: UIDs u, u+1, ..., \Recent set) *)
Definition retag (k u : Z) (f : msg) : msg :=
  {| m_key := k; m_uid := u; m_cid := m_cid f; m_date := m_date f; m_seqs := sadd "Recent" (m_seqs f) |}.
Fixpoint number (fs : list msg) (k u : Z) : list msg :=
  match fs with [] => [] | f :: fs' => retag k u f :: number fs' (k + 1) (u + 1) end.
Fixpoint filed (fs : list msg) (k : Z) : list msg :=
  match fs with
  | [] => []
  | f :: fs' => {| m_key := k; m_uid := 0; m_cid := m_cid f; m_date := m_date f; m_seqs := m_seqs f |} :: filed fs' (k + 1)
  end.

Lemma fold_max_ge l : forall a, a <= fold_left (fun a m => Z.max a (m_key m)) l a.
Proof. induction l as [|m l IH]; intros a; cbn [fold_left]; [lia|]. specialize (IH (Z.max a (m_key m))). lia. Qed.
Lemma max_key_in l m : In m l -> m_key m <= max_key l.
Proof.
  unfold max_key. generalize 0. induction l as [|x l IH]; intros a H; [destruct H|]. cbn [fold_left].
  destruct H as [<-|H]; [|apply IH; exact H].
  pose proof (fold_max_ge l (Z.max a (m_key x))). lia.
Qed.
Lemma max_key_app l x : max_key (l ++ [x]) = Z.max (max_key l) (m_key x).
Proof. unfold max_key. rewrite fold_left_app. reflexivity. Qed.

Lemma add_files_spec known : forall fs disk,
  add_files disk known fs = disk ++ filed fs (Z.max (max_key disk) (max_key known) + 1).
Proof.
  induction fs as [|f fs IH]; intros disk; cbn [add_files filed]; [rewrite app_nil_r; reflexivity|].
  rewrite IH, <- app_assoc. cbn [app]. rewrite max_key_app. cbn [m_key].
  replace (Z.max (Z.max (max_key disk) (Z.max (max_key disk) (max_key known) + 1)) (max_key known) + 1)
    with (Z.max (max_key disk) (max_key known) + 1 + 1) by lia.
  reflexivity.
Qed.

Lemma sort_sorted l : StronglySorted Z.lt (map m_key l) -> sort_by_key l = l.
Proof.
  induction l as [|x l IH]; intros H; [reflexivity|]. cbn [map] in H. inversion H as [|? ? Hs Hx]; subst.
  unfold sort_by_key in *. cbn [fold_right]. rewrite (IH Hs). destruct l as [|y l']; [reflexivity|].
  cbn [insert_by_key]. cbn [map] in Hx. pose proof (Forall_inv Hx) as Hxy. cbn in Hxy.
  destruct (Z.ltb_spec (m_key x) (m_key y)); [reflexivity|lia].
Qed.
Lemma filed_SK fs : forall k,
  StronglySorted Z.lt (map m_key (filed fs k)) /\ Forall (fun x => k <= x) (map m_key (filed fs k)).
Proof.
  induction fs as [|m l IH]; intros k; cbn [filed map]; [split; constructor|].
  destruct (IH (k + 1)) as [Hs Hf]. split.
  - constructor; [exact Hs|]. eapply Forall_impl; [|exact Hf]. intros a Ha. cbn [m_key]. cbv beta in Ha. lia.
  - constructor; [cbn [m_key]; lia|]. eapply Forall_impl; [|exact Hf]. intros a Ha. cbv beta in *. lia.
Qed.
Lemma sort_filed fs k : sort_by_key (filed fs k) = filed fs k.
Proof. apply sort_sorted, filed_SK. Qed.
Lemma assign_filed fs : forall k u, assign_uids (filed fs k) u = number fs k u.
Proof. induction fs as [|f fs IH]; intros k u; [reflexivity|]. cbn [filed assign_uids number]. rewrite IH. reflexivity. Qed.

(* APPEND / COPY / MOVE / delivery into a box whose earlier deliveries have been taken in: exactly one
   message per file, in order, at the end, fresh ascending UIDs from UIDNEXT, same content, date
   and flags plus \Recent; nothing else changes *)
Theorem add_exact b files :
  b_disk b = [] -> files <> [] ->
  let b3 := fst (resync (with_disk b (add_files (b_disk b) (b_msgs b) files))) in
  b_msgs b3 = b_msgs b ++ number files (max_key (b_msgs b) + 1) (b_next b) /\
  b_next b3 = b_next b + zlen files /\ b_vv b3 = b_vv b.
Proof.
  intros Hd _ b3. subst b3. rewrite Hd, add_files_spec. cbn [app].
  assert (Hk : Z.max (max_key []) (max_key (b_msgs b)) + 1 = max_key (b_msgs b) + 1).
  { unfold max_key at 1. cbn [fold_left]. pose proof (fold_max_ge (b_msgs b) 0). unfold max_key. lia. }
  rewrite Hk.
  destruct (resync_data (with_disk b (filed files (max_key (b_msgs b) + 1)))) as [S1 [S2 [S3 _]]].
  unfold fresh_of in S1, S2. cbn [with_disk b_disk b_msgs b_next b_vv] in S1, S2, S3.
  rewrite sort_filed, assign_filed in S1, S2. rewrite S1, S2, S3. split; [reflexivity|]. split; [|reflexivity].
  f_equal. clear. generalize (max_key (b_msgs b) + 1) (b_next b). induction files as [|f fs IH]; intros k u; [reflexivity|].
  cbn [number]. rewrite !zlen_cons, IH. reflexivity.
Qed.

Lemma map_at_nil f l : forall pos, map_at f [] l pos = l.
Proof. induction l as [|m l IH]; intros pos; cbn [map_at zmem existsb]; [reflexivity|]. rewrite IH. reflexivity. Qed.

Lemma examine_store w s u st a si fl n b c :
  sel w s = Some n -> get_box w n = Some b -> get_client b s = Some c -> c_exam c = true ->
  step w (OStore s u st a si fl) = (w, [(s, RNo)]).
Proof. intros H1 H2 H3 H4. unfold step, in_mbox. rewrite H1, H2, H3, H4. reflexivity. Qed.

Lemma examine_move w s u st d n b c :
  sel w s = Some n -> get_box w n = Some b -> get_client b s = Some c -> c_exam c = true ->
  step w (OMove s u st d) = (w, [(s, RNo)]).
Proof. intros H1 H2 H3 H4. unfold step, in_mbox. rewrite H1, H2, H3, H4. reflexivity. Qed.

Lemma examine_expunge w s us n b c :
  sel w s = Some n -> get_box w n = Some b -> get_client b s = Some c -> c_exam c = true ->
  exists b', get_box (fst (step w (OExpunge s us))) n = Some b' /\ b_msgs b' = b_msgs b /\
             forall n', n' <> n -> get_box (fst (step w (OExpunge s us))) n' = get_box w n'.
Proof.
  intros H1 H2 H3 H4. unfold step, in_mbox. rewrite H1, H2, H3. destruct (flush b s) as [b0 o0] eqn:Ef. rewrite H4.
  cbn [fst]. exists b0. rewrite get_set_box, String.eqb_refl. split; [reflexivity|]. split.
  - replace b0 with (fst (flush b s)) by (rewrite Ef; reflexivity). apply (proj1 (flush_msgs b s)).
  - intros n' Hn. rewrite get_set_box. destruct (String.eqb n' n) eqn:E; [apply String.eqb_eq in E; congruence|reflexivity].
Qed.

Lemma examine_close w s n b c :
  sel w s = Some n -> get_box w n = Some b -> get_client b s = Some c -> c_exam c = true ->
  exists b', get_box (fst (step w (OClose s))) n = Some b' /\ b_msgs b' = b_msgs b.
Proof.
  intros H1 H2 H3 H4. unfold step, in_mbox. rewrite H1, H2, H3, H4. cbn [fst].
  eexists. rewrite get_set_box, String.eqb_refl. split; reflexivity.
Qed.

(* a FETCH from a read-only session leaves every message as the resync found it *)
Lemma examine_fetch w s u st k n b c :
  sel w s = Some n -> get_box w n = Some b -> get_client b s = Some c -> c_exam c = true ->
  forall b', get_box (fst (step w (OFetch s u st k))) n = Some b' ->
  b_msgs b' = b_msgs b \/ b_msgs b' = b_msgs (fst (resync (fst (flush b s)))).
Proof.
  intros H1 H2 H3 H4 b'. unfold step, in_mbox. rewrite H1, H2, H3.
  destruct (gate b s u true) as [[b0 o0]|] eqn:G; [|cbn [fst]; rewrite H2; intros [= <-]; left; reflexivity].
  apply gate_flush in G as [-> _].
  destruct (admit_set w n _ u st) as [[[b1a o1a] sl]|] eqn:A.
  - apply admit_set_resync in A as [-> _]. rewrite H4, !let_pair. cbn [fst filter].
    rewrite map_at_nil, get_set_box, String.eqb_refl. intros [= <-]. right.
    rewrite (proj1 (flush_msgs _ s)), (proj1 (dispatch_msgs _ _ _)). apply (proj1 (flush_msgs _ s)).
  - cbn [fst]. rewrite get_set_box, String.eqb_refl. intros [= <-]. left. apply (proj1 (flush_msgs b s)).
Qed.

Theorem delivery_appended b :
  b_disk b <> [] ->
  b_msgs (fst (resync b)) = b_msgs b ++ fresh_of b /\
  Forall (fun m => b_next b <= m_uid m /\ smem "Recent" (m_seqs m) = true) (fresh_of b).
Proof.
  intros _. split; [apply resync_data|].
  unfold fresh_of. generalize (b_next b). induction (sort_by_key (b_disk b)) as [|m l IH]; intros u; cbn [assign_uids]; [constructor|].
  constructor.
  - cbn [m_uid m_seqs]. split; [lia|]. unfold sadd. destruct (smem "Recent" (m_seqs m)) eqn:E; [exact E|].
    unfold smem. rewrite existsb_app. cbn. rewrite orb_true_r. reflexivity.
  - eapply Forall_impl; [|apply (IH (u + 1))]. cbv beta. intros a [Ha Hb]. split; [lia|exact Hb].
Qed.
