(* Proofs/SchedP.v — C10, three separate results.  The admission relation (would_conflict) is sound
   for the commands' footprints, except where `asym` below says so: a command let in clashes with
   nothing that runs.  Commuting steps make every interleaving equal to a serial execution.  The
   one-mailbox-at-a-time discipline of COPY/MOVE excludes deadlock and keeps every mailbox held at
   most once.  The first two are not connected by any lemma here: steps are arbitrary functions on
   a state, and that commands whose footprints do not clash have commuting steps is assumed, not
   proved. *)
From Asimap Require Import Base.Res Model.Sched.
Open Scope Z_scope.

Lemma existsb_false_in {A} (f : A -> bool) l x : existsb f l = false -> In x l -> f x = false.
Proof.
  intros H Hin. destruct (f x) eqn:E; [|reflexivity].
  rewrite <- H. symmetry. apply existsb_exists. exists x. auto.
Qed.

(* The one asymmetry of would_conflict: a FETCH without non-PEEK body parts arriving while a
   non-PEEK FETCH on some of the same messages runs is let in (the other order is not). *)
Definition asym (running : list cmd) (c : cmd) : bool :=
  match c_kind c with
  | KFetch true => existsb (fun r => match c_kind r with KFetch false => intersect c r | _ => false end) running
  | _ => false
  end.

Lemma admitted_beside_each running deleted c r :
  would_conflict running deleted c = false -> In r running -> would_conflict [r] deleted c = false.
Proof.
  intros Hw Hin. unfold would_conflict in *. destruct running as [|r0 rs]; [destruct Hin|].
  cbn [existsb]. destruct (existsb _ (r0 :: rs)) eqn:Ec; [discriminate Hw|].
  rewrite (existsb_false_in _ _ _ Ec Hin). cbn [orb].
  destruct (c_kind c) as [| | | | | | | |[|]| | | | | |]; trivial;
    try (apply orb_false_elim in Hw; destruct Hw as [-> Hw]);
    rewrite (existsb_false_in _ _ _ Hw Hin); reflexivity.
Qed.

Lemma asym_each running c r : asym running c = false -> In r running -> asym [r] c = false.
Proof.
  unfold asym. intros Ha Hin. destruct (c_kind c) as [| | | | | | | |[|]| | | | | |]; trivial.
  cbn [existsb]. rewrite (existsb_false_in _ _ _ Ha Hin). reflexivity.
Qed.

Lemma ext_meet_sets a b : ext_meet (ESet a) (ESet b) = existsb (fun v => zmem v b) a.
Proof. reflexivity. Qed.

(* The table of kinds, pair by pair.  Where two footprints could clash in their flags, the tests of
   would_conflict and asym say that the two message sets do not meet. *)
Lemma admitted_pair deleted c r delr :
  would_conflict [r] deleted c = false -> asym [r] c = false -> fp_clash (fp deleted c) (fp delr r) = false.
Proof.
  destruct c as [kc sc], r as [kr sr].
  unfold would_conflict, asym, fp, intersect; cbn [c_kind c_set existsb].
  (* next to a running command of a conflicting kind nothing is let in *)
  destruct kr as [| | | | | | | |[|]| | | | | |]; cbn [conflicting_kind orb]; intros Hw; try discriminate Hw.
  all: destruct kc as [| | | | | | | |[|]| | | | | |]; try discriminate Hw; intros Ha.
  (* CLOSE and EXPUNGE only with nothing to expunge *)
  all: try (destruct deleted; [discriminate Hw|]); cbn [orb] in Hw; try discriminate Hw.
  all: rewrite ?orb_false_r in Hw; rewrite ?orb_false_r in Ha.
  all: unfold fp_clash, fp_all;
    cbn [f_wlist f_rlist f_wflags f_rflags f_wdel f_rdel andb orb ext_meet]; rewrite ?Hw, ?Ha; reflexivity.
Qed.

Theorem conflict_sound running deleted c r delr :
  would_conflict running deleted c = false -> asym running c = false ->
  In r running -> fp_clash (fp deleted c) (fp delr r) = false.
Proof.
  intros Hw Ha Hin. apply admitted_pair; [eapply admitted_beside_each|eapply asym_each]; eassumption.
Qed.

(* EXPUNGE with nothing marked \Deleted yet is not let in next to a running STORE: the STORE could mark
   a message, the EXPUNGE remove it, and the STORE's FETCH notification for a message that no longer
   exists would follow the EXPUNGE.  Next to commands that cannot mark anything it is let in. *)
Example expunge_waits_for_store :
  let store := {| c_kind := KStore; c_set := [2] |} in
  let fetch := {| c_kind := KFetch true; c_set := [2] |} in
  let exp := {| c_kind := KExpunge; c_set := [] |} in
  fp_clash (fp false exp) (fp false store) = true /\ would_conflict [store] false exp = true /\ would_conflict [fetch] false exp = false.
Proof. repeat split. Qed.

Example conflict_asymmetry :
  let nonpeek := {| c_kind := KFetch false; c_set := [1] |} in
  let peek := {| c_kind := KFetch true; c_set := [1] |} in
  would_conflict [nonpeek] false peek = false /\ would_conflict [peek] false nonpeek = true /\
  fp_clash (fp false peek) (fp false nonpeek) = true.
Proof. repeat split. Qed.

Section InterleaveP.
  Context {S : Type}.
  Notation astep := (@astep S).

  Lemma runs_app (a b : list astep) s : runs (a ++ b) s = runs b (runs a s).
  Proof. unfold runs. apply fold_left_app. Qed.

  Lemma runs_cons (f : astep) (l : list astep) s : runs (f :: l) s = runs l (f s).
  Proof. reflexivity. Qed.

  Lemma move_front (y : astep) (a : list astep) : (forall f, In f a -> commute f y) -> forall s, runs a (y s) = y (runs a s).
  Proof.
    induction a as [|f a IH]; intros H s; [reflexivity|]. rewrite !runs_cons.
    rewrite (H f (or_introl eq_refl)). apply IH. intros g Hg. apply H. right; exact Hg.
  Qed.

  Theorem interleave_serial (a b l : list astep) :
    interleave a b l -> (forall f g, In f a -> In g b -> commute f g) -> forall s, runs l s = runs (a ++ b) s.
  Proof.
    induction 1 as [|x a b l _ IH|y a b l _ IH]; intros Hc s.
    - reflexivity.
    - cbn [app]. rewrite !runs_cons. apply IH. intros f g Hf Hg. apply Hc; [right; exact Hf|exact Hg].
    - rewrite runs_cons. rewrite IH by (intros f g Hf Hg; apply Hc; [exact Hf|right; exact Hg]).
      rewrite !runs_app, runs_cons. f_equal.
      apply move_front. intros f Hf. apply Hc; [exact Hf|left; reflexivity].
  Qed.

  Lemma interleave_in (a b l : list astep) : interleave a b l -> forall f, In f l -> In f a \/ In f b.
  Proof.
    induction 1 as [|x a b l _ IH|y a b l _ IH]; intros f Hf; [destruct Hf| |].
    - destruct Hf as [<-|Hf]; [left; left; reflexivity|]. destruct (IH f Hf); [left; right|right]; trivial.
    - destruct Hf as [<-|Hf]; [right; left; reflexivity|]. destruct (IH f Hf); [left|right; right]; trivial.
  Qed.

  Lemma interleave_all_in (cs : list (list astep)) (l : list astep) : interleave_all cs l -> forall f, In f l -> exists c, In c cs /\ In f c.
  Proof.
    induction 1 as [|c cs l l' _ IH Hi]; intros f Hf; [destruct Hf|].
    destruct (interleave_in _ _ _ Hi f Hf) as [H|H]; [exists c; split; [left; reflexivity|exact H]|].
    destruct (IH f H) as [c0 [H1 H2]]. exists c0. split; [right; exact H1|exact H2].
  Qed.

  (* The listed order is arbitrary, hence: in any order.  Commands are lists of functions, so
     "two different commands" is c1 <> c2 between members of a NoDup list: a step list occurring
     twice would have to commute with itself. *)
  Theorem interleave_all_serial (cs : list (list astep)) (l : list astep) :
    interleave_all cs l ->
    (forall c1 c2 f g, In c1 cs -> In c2 cs -> c1 <> c2 -> In f c1 -> In g c2 -> commute f g) ->
    NoDup cs ->
    forall s, runs l s = runs (List.concat cs) s.
  Proof.
    induction 1 as [|c cs l l' Hall IH Hi]; intros Hc Hnd s; [reflexivity|].
    inversion Hnd as [|? ? Hnotin Hnd']; subst.
    rewrite (interleave_serial _ _ _ Hi).
    - cbn [List.concat]. rewrite !runs_app. apply IH; [|exact Hnd'].
      intros c1 c2 f g H1 H2 Hne Hf Hg. apply (Hc c1 c2); trivial; right; trivial.
    - intros f g Hf Hg. destruct (interleave_all_in _ _ Hall g Hg) as [c0 [H0 Hg0]].
      apply (Hc c c0); trivial; [left; reflexivity|right; exact H0|]. intros ->. contradiction.
  Qed.
End InterleaveP.

Lemma ok_do_action t : task_ok t = true -> task_ok (do_action t) = true.
Proof.
  destruct t as [[|[m| |] r] h]; unfold task_ok, do_action, holding; cbn [script_ok t_script t_holds]; trivial;
    intros H; apply andb_prop in H; apply H.
Qed.

Lemma all_ok_step ts ts' : sys_step ts ts' -> forallb task_ok ts = true -> forallb task_ok ts' = true.
Proof.
  intros [pre t post He]. rewrite !forallb_app. cbn [forallb].
  destruct (forallb task_ok pre), (forallb task_ok post), (task_ok t) eqn:Ht; try discriminate.
  rewrite (ok_do_action t Ht). reflexivity.
Qed.

Definition wants_no_mailbox (t : task) : bool :=
  match t_script t with Rel :: _ | Work :: _ => true | _ => false end.

Lemma empty_handed t : task_ok t = true -> wants_no_mailbox t = false -> t_holds t = [].
Proof.
  unfold task_ok, wants_no_mailbox, holding.
  destruct (t_script t) as [|[m| |] r]; try discriminate; cbn [script_ok];
    destruct (t_holds t); try discriminate; reflexivity.
Qed.

Theorem progress ts :
  forallb task_ok ts = true -> existsb unfinished ts = true -> exists t, In t ts /\ enabled ts t = true.
Proof.
  intros Hok Hun. destruct (existsb wants_no_mailbox ts) eqn:Ew.
  - (* a task whose next action is not an acquisition can take it *)
    apply existsb_exists in Ew. destruct Ew as [t [Hin Hw]]. exists t. split; [exact Hin|].
    unfold enabled, wants_no_mailbox in *. destruct (t_script t) as [|[m| |] r]; try discriminate; reflexivity.
  - (* otherwise nobody holds anything, and any unfinished task gets what it asks for *)
    assert (Hfree : forall m, held ts m = false).
    { intros m. unfold held. destruct (existsb (fun t => zmem m (t_holds t)) ts) eqn:E; [|reflexivity].
      apply existsb_exists in E. destruct E as [t [Hin Hz]]. rewrite forallb_forall in Hok.
      rewrite (empty_handed t (Hok t Hin) (existsb_false_in _ _ _ Ew Hin)) in Hz. discriminate. }
    apply existsb_exists in Hun. destruct Hun as [t [Hin Hu]]. exists t. split; [exact Hin|].
    pose proof (existsb_false_in _ _ _ Ew Hin) as Hw.
    unfold enabled, unfinished, wants_no_mailbox in *.
    destruct (t_script t) as [|[m| |] r]; try discriminate. rewrite Hfree. reflexivity.
Qed.

Lemma scripts_ok m src dst :
  script_ok false (script_single m) = true /\ script_ok false (script_copy src dst) = true /\
  script_ok false (script_move src dst) = true.
Proof. repeat split. Qed.

Definition all_holds (ts : list task) : list Z := List.concat (map t_holds ts).

Lemma all_holds_mid pre t post : all_holds (pre ++ t :: post) = all_holds pre ++ t_holds t ++ all_holds post.
Proof. unfold all_holds. rewrite map_app, concat_app. reflexivity. Qed.

Lemma held_in ts m : held ts m = false -> ~ In m (all_holds ts).
Proof.
  unfold held, all_holds. intros H Hin. apply in_concat in Hin. destruct Hin as [l [Hl Hm]].
  apply in_map_iff in Hl. destruct Hl as [t [<- Ht]].
  pose proof (existsb_false_in _ _ _ H Ht) as Hz. cbv beta in Hz.
  apply (existsb_false_in _ _ m Hz) in Hm. rewrite Z.eqb_refl in Hm. discriminate.
Qed.

Theorem mutex_step ts ts' : sys_step ts ts' -> forallb task_ok ts = true -> NoDup (all_holds ts) -> NoDup (all_holds ts').
Proof.
  intros [pre t post He] Hok. rewrite forallb_forall in Hok. specialize (Hok t (List.in_elt t pre post)).
  rewrite !all_holds_mid. intros Hnd.
  unfold do_action, enabled in *. destruct (t_script t) as [|[m| |] r] eqn:Es; [discriminate| | |]; cbn [t_holds].
  - (* Acq m: the task held nothing, and nobody holds m *)
    apply negb_true_iff, held_in in He. rewrite all_holds_mid in He.
    rewrite (empty_handed t Hok) in * by (unfold wants_no_mailbox; rewrite Es; reflexivity).
    apply (NoDup_Add (Add_app m _ _)). split; assumption.
  - (* Rel: what the task held leaves the list *)
    induction (t_holds t) as [|y h IH]; [exact Hnd|]. apply IH. apply NoDup_remove_1 with y. exact Hnd.
  - exact Hnd.
Qed.

(* if COPY kept its source while asking for the destination, two opposite copies deadlock: the two
   tasks below are bad_copy 1 2 and bad_copy 2 1 after their first two actions *)
Definition bad_copy (src dst : Z) : list action := [Acq src; Work; Acq dst; Work; Rel; Rel].
Example holding_while_asking_deadlocks :
  let ts := [ {| t_script := [Acq 2; Work; Rel; Rel]; t_holds := [1] |};
              {| t_script := [Acq 1; Work; Rel; Rel]; t_holds := [2] |} ] in
  existsb unfinished ts = true /\ forallb (fun t => negb (enabled ts t)) ts = true.
Proof. split; vm_compute; reflexivity. Qed.
