(* Proofs/BodyAlgP.v — lemmas about the data-item algebra (Model/BodyAlg.v) and the literal
   reader of Spec/RespTok.v. *)
From Asimap Require Import Base.Res Model.BodyAlg Spec.RespTok.
From Coq Require Import Decimal ZifyBool.
From Coq Require DecimalN DecimalPos.
Open Scope Z_scope.

Lemma ends_crlf_cons2 a b c t : ends_crlf (a :: b :: c :: t) = ends_crlf (b :: c :: t).
Proof. reflexivity. Qed.

Lemma ends_crlf_app2 h x y t : ends_crlf (h ++ x :: y :: t) = ends_crlf (x :: y :: t).
Proof.
  induction h as [|a h IH]; [reflexivity|]. rewrite <- IH.
  destruct h as [|b [|c h]]; reflexivity.
Qed.

Lemma ends_crlf_app_crlf l : ends_crlf (l ++ CRLF) = true.
Proof. exact (ends_crlf_app2 l 13 10 []). Qed.

Lemma ends_crlf_iff l : ends_crlf l = true <-> exists p, l = p ++ CRLF.
Proof.
  split; [|intros [p ->]; apply ends_crlf_app_crlf].
  induction l as [|a [|b [|c l]] IH]; intros H; try discriminate H.
  - apply andb_prop in H as [Ha Hb]. apply Z.eqb_eq in Ha, Hb. subst. exists []. reflexivity.
  - destruct (IH H) as [p ->]. exists (a :: p). reflexivity.
Qed.

(* a single octet after a CRLF does not end in CRLF; two or more decide by themselves *)
Lemma ends_crlf_app_ne h b :
  ends_crlf h = true -> b <> [] -> ends_crlf (h ++ b) = ends_crlf b.
Proof.
  intros Hh Hb. destruct b as [|x [|y t]]; [contradiction| |apply ends_crlf_app2].
  apply ends_crlf_iff in Hh as [p ->]. rewrite <- app_assoc. exact (ends_crlf_app2 p 13 10 [x]).
Qed.

Lemma ensure_crlf_ends l : ends_crlf (ensure_crlf l) = true.
Proof.
  unfold ensure_crlf. destruct (ends_crlf l) eqn:E; [exact E|apply ends_crlf_app_crlf].
Qed.

Lemma ensure_crlf_fix l : ends_crlf l = true -> ensure_crlf l = l.
Proof. intros H. unfold ensure_crlf. rewrite H. reflexivity. Qed.

Lemma ensure_crlf_idem l : ensure_crlf (ensure_crlf l) = ensure_crlf l.
Proof. apply ensure_crlf_fix, ensure_crlf_ends. Qed.

Lemma ensure_crlf_nil : ensure_crlf [] = CRLF.
Proof. reflexivity. Qed.

Lemma ensure_crlf_app h b :
  ends_crlf h = true -> b <> [] -> ensure_crlf (h ++ b) = h ++ ensure_crlf b.
Proof.
  intros Hh Hb. unfold ensure_crlf. rewrite (ends_crlf_app_ne h b Hh Hb).
  destruct (ends_crlf b); [reflexivity|apply app_assoc_reverse].
Qed.

Lemma zskip_skipn l : forall o, zskip o l = skipn (Z.to_nat o) l.
Proof.
  induction l as [|x t IH]; intros o; cbn [zskip].
  - destruct (Z.to_nat o); reflexivity.
  - destruct (Z.leb_spec o 0).
    + replace (Z.to_nat o) with 0%nat by lia. reflexivity.
    + rewrite IH. replace (Z.to_nat o) with (S (Z.to_nat (o - 1))) by lia. reflexivity.
Qed.

Lemma ztake_firstn l : forall n, ztake n l = firstn (Z.to_nat n) l.
Proof.
  induction l as [|x t IH]; intros n; cbn [ztake].
  - destruct (Z.to_nat n); reflexivity.
  - destruct (Z.leb_spec n 0).
    + replace (Z.to_nat n) with 0%nat by lia. reflexivity.
    + rewrite IH. replace (Z.to_nat n) with (S (Z.to_nat (n - 1))) by lia. reflexivity.
Qed.

Lemma partial_firstn_skipn l o n :
  partial (Some (o, n)) l = firstn (Z.to_nat n) (skipn (Z.to_nat o) l).
Proof.
  unfold partial, pyslice. replace (o + n - o) with n by lia.
  rewrite ztake_firstn, zskip_skipn. reflexivity.
Qed.

Lemma nth_error_skipn {A} (l : list A) : forall n i, nth_error (skipn n l) i = nth_error l (n + i).
Proof.
  induction l as [|x t IH]; intros [|n] i; try reflexivity.
  - destruct i; reflexivity.
  - apply IH.
Qed.

Lemma nth_error_firstn {A} (l : list A) : forall n i,
  nth_error (firstn n l) i = if (i <? n)%nat then nth_error l i else None.
Proof.
  induction l as [|x t IH]; intros [|n] [|i]; try reflexivity.
  - destruct (_ <? _)%nat; reflexivity.
  - exact (IH n i).
Qed.

Lemma partial_nth l o n i :
  nth_error (partial (Some (o, n)) l) i =
  if Z.of_nat i <? n then nth_error l (Z.to_nat o + i) else None.
Proof.
  rewrite partial_firstn_skipn, nth_error_firstn, nth_error_skipn.
  replace (Z.of_nat i <? n) with (i <? Z.to_nat n)%nat by lia. reflexivity.
Qed.

Lemma partial_length l o n : 0 <= o -> 0 <= n ->
  Z.of_nat (List.length (partial (Some (o, n)) l)) = Z.min n (Z.max 0 (Z.of_nat (List.length l) - o)).
Proof.
  intros Ho Hn. rewrite partial_firstn_skipn.
  rewrite firstn_length, skipn_length, Nat2Z.inj_min, Nat2Z.inj_sub_max, !Z2Nat.id by assumption.
  reflexivity.
Qed.

Definition digit (b : Z) : Prop := 48 <= b <= 57.

Fixpoint horner (acc : N) (ds : list Z) : N :=
  match ds with
  | [] => acc
  | b :: t => horner (10 * acc + Z.to_N (b - 48)) t
  end.

Lemma digit_val_digit b : digit b -> digit_val b = Some (Z.to_N (b - 48)).
Proof.
  unfold digit, digit_val. intros H. replace ((48 <=? b) && (b <=? 57)) with true by lia. reflexivity.
Qed.

(* Decimal.uint has one constructor per digit, so each fact about uint_bytes is ten times the
   same step; N.of_uint is Horner's rule too, but drops leading zeros first and then works in
   positive: hence the two lemmas. *)
Lemma horner_uint_pos u : forall p, horner (N.pos p) (uint_bytes u) = N.pos (Pos.of_uint_acc u p).
Proof.
  induction u as [|u IH|u IH|u IH|u IH|u IH|u IH|u IH|u IH|u IH|u IH]; intros p;
    cbn [uint_bytes horner Pos.of_uint_acc]; [reflexivity|..]; rewrite <- IH; f_equal; lia.
Qed.

Lemma horner_uint u : horner 0 (uint_bytes u) = N.of_uint u.
Proof.
  induction u as [|u IH|u IH|u IH|u IH|u IH|u IH|u IH|u IH|u IH|u IH];
    [reflexivity|exact IH|apply horner_uint_pos..].
Qed.

Lemma uint_bytes_digits u : Forall digit (uint_bytes u).
Proof. induction u; constructor; solve [assumption | unfold digit; lia]. Qed.

Lemma dec_digits n : Forall digit (dec n).
Proof. apply uint_bytes_digits. Qed.

Lemma dec_nonempty n : dec n <> [].
Proof.
  unfold dec. assert (H : N.to_uint n <> Nil)
    by (destruct n; [discriminate|apply DecimalPos.Unsigned.to_uint_nonnil]).
  destruct (N.to_uint n); [contradiction|discriminate..].
Qed.

Lemma horner_dec n : horner 0 (dec n) = n.
Proof. unfold dec. rewrite horner_uint. apply DecimalN.Unsigned.of_to. Qed.

Lemma read_digits_run ds x r : Forall digit ds -> digit_val x = None ->
  forall acc seen, seen = true \/ ds <> [] ->
  read_digits acc seen (ds ++ x :: r) = Some (horner acc ds, x :: r).
Proof.
  intros Hd Hx. induction Hd as [|b ds Hb _ IH]; intros acc seen Hs; cbn [Datatypes.app read_digits horner].
  - destruct Hs as [->|H]; [|contradiction]. rewrite Hx. reflexivity.
  - rewrite (digit_val_digit b Hb). apply IH. left. reflexivity.
Qed.

Lemma read_number_dec n x r : digit_val x = None ->
  read_number (dec n ++ x :: r) = Some (n, x :: r).
Proof.
  intros Hx. unfold read_number.
  rewrite read_digits_run, horner_dec; auto using dec_digits, dec_nonempty.
Qed.

Lemma take_n_app l : forall rest, take_n (Z.of_nat (List.length l)) (l ++ rest) = Some (l, rest).
Proof.
  induction l as [|x t IH]; intros rest.
  - destruct rest; reflexivity.
  - cbn [Datatypes.app take_n List.length]. rewrite Nat2Z.inj_succ, Z.sub_1_r, Z.pred_succ, IH.
    replace (Z.succ _ <=? 0) with false by lia. reflexivity.
Qed.

Lemma expect_hit b t : expect b (b :: t) = Some t.
Proof. cbn [expect]. rewrite Z.eqb_refl. reflexivity. Qed.

Lemma literal_app l rest :
  literal l ++ rest = 123 :: (dec (blen l) ++ 125 :: 13 :: 10 :: (l ++ rest)).
Proof.
  unfold literal. rewrite <- app_comm_cons, <- app_assoc. reflexivity.
Qed.

Lemma read_literal_literal l rest : read_literal (literal l ++ rest) = Some (l, rest).
Proof.
  rewrite literal_app. unfold read_literal.
  rewrite expect_hit, read_number_dec by reflexivity.
  rewrite !expect_hit.
  unfold blen. rewrite nat_N_Z. apply take_n_app.
Qed.

Lemma literal_length l :
  List.length (literal l) = (List.length (dec (blen l)) + 4 + List.length l)%nat.
Proof.
  unfold literal. cbn [List.length]. rewrite app_length. cbn [List.length]. lia.
Qed.

Section Rendering.
  Variable msg : Type.
  Variables hdr body : msg -> list Z.

  Notation body_data := (body_data msg hdr body).
  Notation fetch_body := (fetch_body msg hdr body).
  Notation fetch_item := (fetch_item msg hdr body).
  Notation msg_size := (msg_size msg hdr body).

  Lemma data_full m : body_data SFull None m = ensure_crlf (hdr m ++ body m).
  Proof. unfold BodyAlg.body_data, section_bytes, partial. apply ensure_crlf_idem. Qed.

  Lemma data_text m : body_data SText None m = ensure_crlf (body m).
  Proof. unfold BodyAlg.body_data, section_bytes, partial. apply ensure_crlf_idem. Qed.

  Lemma size_both m :
    msg_size m = blen (body_data SFull None m) /\
    fetch_item IRfc822Size m = dec (blen (body_data SFull None m)).
  Proof. rewrite data_full. split; reflexivity. Qed.

  Lemma rfc822_items m :
    fetch_item IRfc822 m = fetch_item (IBody SFull None) m /\
    fetch_item IRfc822Header m = fetch_item (IBody SHeader None) m /\
    fetch_item IRfc822Text m = fetch_item (IBody SText None) m.
  Proof. repeat split; reflexivity. Qed.

  Lemma partial_is_slice m s o n i : 0 <= o -> 0 <= n ->
    nth_error (body_data s (Some (o, n)) m) i =
    if Z.of_nat i <? n then nth_error (body_data s None m) (Z.to_nat o + i) else None.
  Proof. intros _ _. unfold BodyAlg.body_data at 1. apply partial_nth. Qed.

  Lemma partial_is_firstn_skipn m s o n : 0 <= o -> 0 <= n ->
    body_data s (Some (o, n)) m = firstn (Z.to_nat n) (skipn (Z.to_nat o) (body_data s None m)).
  Proof. intros _ _. unfold BodyAlg.body_data at 1. apply partial_firstn_skipn. Qed.

  Lemma fetch_body_reads m s p rest :
    read_literal (fetch_body s p m ++ rest) = Some (body_data s p m, rest).
  Proof. unfold BodyAlg.fetch_body. apply read_literal_literal. Qed.

  Lemma whole_item_ends_crlf m s : ends_crlf (body_data s None m) = true.
  Proof. unfold BodyAlg.body_data, partial. apply ensure_crlf_ends. Qed.

  (* the header block the generator writes is a sequence of CRLF-terminated lines ending in
     the blank line: in particular it ends in CRLF *)
  Hypothesis hdr_crlf : forall m, ends_crlf (hdr m) = true.

  Lemma data_header m : body_data SHeader None m = hdr m.
  Proof. unfold BodyAlg.body_data, section_bytes, partial. apply ensure_crlf_fix, hdr_crlf. Qed.

  Lemma header_text_concat m : body m <> [] ->
    body_data SHeader None m ++ body_data SText None m = body_data SFull None m.
  Proof.
    intros Hb. rewrite data_header, data_text, data_full.
    symmetry. apply ensure_crlf_app; [apply hdr_crlf|exact Hb].
  Qed.

  Lemma header_text_empty m : body m = [] ->
    body_data SHeader None m ++ body_data SText None m = body_data SFull None m ++ CRLF.
  Proof.
    intros Hb. rewrite data_header, data_text, data_full, Hb, app_nil_r.
    rewrite ensure_crlf_nil, (ensure_crlf_fix _ (hdr_crlf m)). reflexivity.
  Qed.

  Lemma header_text_iff m :
    body_data SHeader None m ++ body_data SText None m = body_data SFull None m <-> body m <> [].
  Proof.
    split; [|apply header_text_concat].
    intros H Hb. rewrite (header_text_empty m Hb) in H.
    apply (f_equal (@List.length Z)) in H. rewrite app_length in H. cbn [CRLF List.length] in H. lia.
  Qed.
End Rendering.

(* the hypotheses are satisfiable, and the empty body really is a counterexample *)
Definition ex_hdr (m : list Z * list Z) := fst m.
Definition ex_body (m : list Z * list Z) := snd m.

Lemma refuted_empty_body :
  exists m : list Z * list Z,
    ends_crlf (ex_hdr m) = true /\ ex_body m = [] /\
    body_data _ ex_hdr ex_body SHeader None m ++ body_data _ ex_hdr ex_body SText None m
      <> body_data _ ex_hdr ex_body SFull None m.
Proof.
  exists ([83; 58; 32; 120; 13; 10; 13; 10], []).   (* "S: x" CRLF CRLF, no body *)
  split; [reflexivity|]. split; [reflexivity|]. vm_compute. discriminate.
Qed.
