(* Proofs/CopyUid.v — COPYUID / APPENDUID are looked up by message number (C02).

   Mailbox.copy / append write the copies as MH files (remembering the numbers MH.add gave them), resync
   the destination, and report for each remembered number the UID of the message that now has it.  An MH
   tool is another process: it may have dropped files of its own before, between or after the
   copies.  Whatever files the resync takes in together with the copies, looking a copy up by its number
   finds the message with the copy's content; reporting the LAST n UIDs of the destination instead does
   not (refuted below). *)
From Asimap Require Import Base.Res Spec.SetSem Model.Mbox Proofs.MboxInv Proofs.MboxUid Proofs.MboxKeys.
From Coq Require Import Sorting.Sorted.
Local Open Scope Z_scope.

Definition msg_of_key (ms : list msg) (k : Z) : option msg := find (fun m => m_key m =? k) ms.
(* what copy() reports for the remembered numbers *)
Definition report_by_key (b : mbox) (ks : list Z) : list (option Z) := map (fun k => option_map m_uid (msg_of_key (b_msgs b) k)) ks.
(* the variant: the last n UIDs of the destination *)
Definition report_tail (b : mbox) (n : nat) : list Z := skipn (List.length (b_msgs b) - n) (map m_uid (b_msgs b)).

Lemma find_by_key l m : NoDup (keys l) -> In m l -> msg_of_key l (m_key m) = Some m.
Proof.
  unfold msg_of_key. induction l as [|x l IH]; intros Hnd Hin; [destruct Hin|].
  cbn [keys map] in Hnd. inversion Hnd as [|? ? Hx Hnd']; subst. cbn [find].
  destruct Hin as [->|Hin]; [rewrite Z.eqb_refl; reflexivity|].
  destruct (Z.eqb_spec (m_key x) (m_key m)) as [E|_]; [|apply IH; assumption].
  exfalso. apply Hx. rewrite E. unfold keys. apply in_map. exact Hin.
Qed.

Lemma in_assign f l : forall u, In f l ->
  exists f', In f' (assign_uids l u) /\ m_key f' = m_key f /\ m_cid f' = m_cid f /\ m_date f' = m_date f /\ u <= m_uid f'.
Proof.
  induction l as [|x l IH]; intros u Hin; [destruct Hin|]. cbn [assign_uids]. destruct Hin as [->|Hin].
  - eexists. split; [left; reflexivity|]. cbn [m_key m_cid m_date m_uid]. repeat split; lia.
  - destruct (IH (u + 1) Hin) as [f' [H1 [H2 [H3 [H4 H5]]]]]. exists f'. split; [right; exact H1|]. repeat split; trivial. lia.
Qed.

(* every file the resync takes in - a copy or somebody else's delivery - is afterwards found under its own
   number, with its own content and date, and a UID that was not in use before *)
Theorem resync_finds_file_by_key b f :
  kP b -> In f (b_disk b) ->
  exists m, msg_of_key (b_msgs (fst (resync b))) (m_key f) = Some m /\
            m_cid m = m_cid f /\ m_date m = m_date f /\ b_next b <= m_uid m.
Proof.
  intros Hk Hin. destruct (resync_data b) as [S1 _].
  pose proof (resync_kP b Hk) as [Hs' _]. rewrite resync_disk_empty, app_nil_r in Hs'.
  destruct (in_assign f (b_disk b) (b_next b) Hin) as [f' [H1 [H2 H3]]].
  exists f'. rewrite <- H2. split; [|exact H3].
  apply find_by_key; [apply sorted_lt_NoDup, Hs'|].
  rewrite S1. apply in_or_app. right. unfold fresh_of. rewrite (kP_disk_sorted b Hk). exact H1.
Qed.

(* the variant that reports the tail of the UID list is wrong as soon as a foreign file has a number below a
   copy's: two copies (contents 7, 8) written as files 4 and 6, an MH tool dropped file 5 (content 99) in between *)
Example report_tail_refuted :
  let mk k c := {| m_key := k; m_uid := 0; m_cid := c; m_date := 0; m_seqs := [] |} in
  let b := {| b_msgs := [ {| m_key := 3; m_uid := 10; m_cid := 1; m_date := 0; m_seqs := [] |} ]; b_next := 11; b_vv := 1;
              b_clients := []; b_disk := [mk 4 7; mk 5 99; mk 6 8] |} in
  let b' := fst (resync b) in
  report_by_key b' [4; 6] = [Some 11; Some 13] /\ report_tail b' 2 = [12; 13] /\
  option_map m_cid (msg_of_key (b_msgs b') 5) = Some 99 /\
  map m_cid (filter (fun m => m_uid m =? 12) (b_msgs b')) = [99].
Proof. vm_compute. repeat split; reflexivity. Qed.

(* in every reachable world, for any batch of files written into a mailbox (the copies of a COPY/MOVE/APPEND
   and anybody else's deliveries, in any order of arrival) *)
Theorem reachable_copyuid_by_number ps pn pd ops n b fs f :
  get_box (fst (run (init_world ps pn pd) ops)) n = Some b ->
  let b2 := with_disk b (add_files (b_disk b) (b_msgs b) fs) in
  In f (b_disk b2) ->
  exists m, msg_of_key (b_msgs (fst (resync b2))) (m_key f) = Some m /\
            m_cid m = m_cid f /\ m_date m = m_date f /\ b_next b <= m_uid m.
Proof.
  intros H b2 Hin. pose proof (reachable_wK ps pn pd ops n b H) as Hk.
  exact (resync_finds_file_by_key b2 f (with_disk_kP b fs Hk) Hin).
Qed.
