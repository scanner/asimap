(* Proofs/SeqSetP.v — the generated sequence_set_to_list (Gen/SeqSet.v, from
   asimap/utils.py) computes the denotation of Spec/SetSem.v. *)
From Asimap Require Import Base.Res Spec.SetSem Gen.SeqSet.
From Coq Require Import Sorting.Sorted.
Open Scope Z_scope.

Lemma in_elt_list mx e n : In n (elt_list mx e) <-> in_elt mx e n.
Proof. destruct e as [|k|a b]; cbn [elt_list in_elt In]; rewrite ?in_py_range; lia. Qed.

Lemma in_denote mx s n : In n (denote mx s) <-> in_set mx s n.
Proof.
  unfold denote, in_set. rewrite in_sorted_set, in_flat_map, Exists_exists.
  split; intros [e [He Hn]]; exists e; (split; [exact He|]); apply in_elt_list; exact Hn.
Qed.

Lemma denote_sorted mx s : StronglySorted Z.lt (denote mx s).
Proof. apply sorted_set_sorted. Qed.

Lemma atom_or_aval a mx : atom_or a mx = aval mx a.
Proof. reflexivity. Qed.

(* The guards of the generated loop body gathered into one test: the element is refused.  The UID
   form only insists that a single number be positive; a range it never refuses. *)
Definition elt_refused (mx : Z) (uid : bool) (e : sset_elt) : bool :=
  match e with
  | EStar => (mx =? 0) && negb uid
  | ENum k => (k <? 1) || (k >? mx) && negb uid
  | ERange a b =>
      (is_star a || is_star b) && (mx =? 0) && negb uid
      || ((aval mx a <? 1) || (aval mx b <? 1) || (aval mx a >? mx) || (aval mx b >? mx)) && negb uid
  end.

Lemma ordered_range x y :
  (if x >? y then py_range y (x + 1) else py_range x (y + 1)) = py_range (Z.min x y) (Z.max x y + 1).
Proof. destruct (x >? y) eqn:E; f_equal; lia. Qed.

Lemma body_spec ss mx uid acc e :
  sequence_set_to_list_body1 ss mx uid acc e
  = if elt_refused mx uid e then Err EBad else Ok (acc ++ elt_list mx e).
Proof.
  unfold sequence_set_to_list_body1. destruct e as [|k|a b]; cbn [elt_refused elt_list].
  - reflexivity.
  - destruct (k <? 1), ((k >? mx) && negb uid); reflexivity.
  - rewrite !atom_or_aval, <- ordered_range.
    destruct ((is_star a || is_star b) && (mx =? 0) && negb uid); [reflexivity|].
    destruct (_ && negb uid); [reflexivity|]. destruct (aval mx a >? aval mx b); reflexivity.
Qed.

Lemma ok_not_refused mx e : elt_ok mx e = true -> elt_refused mx false e = false.
Proof. destruct e as [|k|[|x] [|y]]; cbn [elt_ok atom_ok elt_refused is_star aval]; lia. Qed.

Lemma bad_refused mx e : 0 <= mx -> elt_ok mx e = false -> elt_refused mx false e = true.
Proof. destruct e as [|k|[|x] [|y]]; cbn [elt_ok atom_ok elt_refused is_star aval]; lia. Qed.

Lemma pos_not_refused mx e : elt_pos e = true -> elt_refused mx true e = false.
Proof. destruct e as [|k|a b]; cbn [elt_pos elt_refused]; lia. Qed.

Lemma body_ok ss mx acc e :
  elt_ok mx e = true ->
  sequence_set_to_list_body1 ss mx false acc e = Ok (acc ++ elt_list mx e).
Proof. intros Hok. rewrite body_spec, (ok_not_refused mx e Hok). reflexivity. Qed.

Lemma body_bad ss mx acc e :
  0 <= mx -> elt_ok mx e = false ->
  sequence_set_to_list_body1 ss mx false acc e = Err EBad.
Proof. intros Hmx Hbad. rewrite body_spec, (bad_refused mx e Hmx Hbad). reflexivity. Qed.

Lemma body_uid ss mx acc e :
  elt_pos e = true ->
  sequence_set_to_list_body1 ss mx true acc e = Ok (acc ++ elt_list mx e).
Proof. intros Hok. rewrite body_spec, (pos_not_refused mx e Hok). reflexivity. Qed.

Lemma loop_ok (body : list Z -> sset_elt -> res (list Z)) (f : sset_elt -> list Z) (P : sset_elt -> bool) :
  (forall acc e, P e = true -> body acc e = Ok (acc ++ f e)) ->
  forall s acc, forallb P s = true -> for_each body acc s = Ok (acc ++ flat_map f s).
Proof.
  intros Hb s; induction s as [|e s IH]; intros acc Hall; cbn [for_each flat_map forallb] in *.
  - rewrite app_nil_r; reflexivity.
  - apply andb_prop in Hall; destruct Hall as [He Hs].
    rewrite (Hb acc e He), (IH _ Hs), app_assoc; reflexivity.
Qed.

Lemma loop_bad (body : list Z -> sset_elt -> res (list Z)) (f : sset_elt -> list Z) (P : sset_elt -> bool) :
  (forall acc e, P e = true -> body acc e = Ok (acc ++ f e)) ->
  (forall acc e, P e = false -> body acc e = Err EBad) ->
  forall s acc, forallb P s = false -> for_each body acc s = Err EBad.
Proof.
  intros Hok Hbad s; induction s as [|e s IH]; intros acc Hall; cbn [for_each forallb] in *.
  - discriminate Hall.
  - destruct (P e) eqn:He.
    + rewrite (Hok acc e He). apply IH. exact Hall.
    + rewrite (Hbad acc e He). reflexivity.
Qed.

(* Without uid a set is accepted exactly when every number it mentions lies in 1..mx.  With uid
   there is no such pair: a set whose single numbers are positive is accepted (numbers above mx
   are allowed, "*" is mx), and for the others nothing is proved, since a range with an end
   below 1 is accepted all the same. *)
Lemma seqset_nonuid_denotes s mx :
  forallb (elt_ok mx) s = true -> sequence_set_to_list s mx false = Ok (denote mx s).
Proof.
  intros Hall. unfold sequence_set_to_list.
  rewrite (loop_ok _ (elt_list mx) (elt_ok mx) (fun acc e => body_ok s mx acc e) s [] Hall).
  reflexivity.
Qed.

Lemma seqset_nonuid_rejects s mx :
  0 <= mx -> forallb (elt_ok mx) s = false -> sequence_set_to_list s mx false = Err EBad.
Proof.
  intros Hmx Hall. unfold sequence_set_to_list.
  rewrite (loop_bad _ (elt_list mx) (elt_ok mx) (fun acc e => body_ok s mx acc e)
             (fun acc e => body_bad s mx acc e Hmx) s [] Hall).
  reflexivity.
Qed.

Lemma seqset_uid_denotes s mx :
  forallb elt_pos s = true -> sequence_set_to_list s mx true = Ok (denote mx s).
Proof.
  intros Hall. unfold sequence_set_to_list.
  rewrite (loop_ok _ (elt_list mx) elt_pos (fun acc e => body_uid s mx acc e) s [] Hall).
  reflexivity.
Qed.

Lemma range_symmetric mx a b n : in_elt mx (ERange a b) n <-> in_elt mx (ERange b a) n.
Proof. cbn [in_elt]; lia. Qed.

Lemma denote_range_symmetric mx a b pre post :
  denote mx (pre ++ ERange a b :: post) = denote mx (pre ++ ERange b a :: post).
Proof.
  apply sorted_ext; try apply denote_sorted.
  intros n; rewrite !in_denote; unfold in_set; rewrite !Exists_app, !Exists_cons.
  rewrite (range_symmetric mx a b n); reflexivity.
Qed.

Lemma star_is_last mx pre post : In mx (denote mx (pre ++ EStar :: post)).
Proof. apply in_denote; unfold in_set; rewrite Exists_app, Exists_cons; right; left; reflexivity. Qed.

Lemma n_star_includes_last mx k pre post : In mx (denote mx (pre ++ ERange (ANum k) AStar :: post)).
Proof. apply in_denote; unfold in_set; rewrite Exists_app, Exists_cons; right; left; cbn [in_elt aval]; lia. Qed.

Lemma denote_within mx s n : forallb (elt_ok mx) s = true -> In n (denote mx s) -> 1 <= n <= mx.
Proof.
  intros Hall Hin. apply in_denote in Hin. unfold in_set in Hin. apply Exists_exists in Hin.
  destruct Hin as [e [He Hn]]. rewrite forallb_forall in Hall. specialize (Hall e He).
  destruct e as [|k|a b]; cbn [elt_ok in_elt] in *; [lia|lia|].
  destruct a, b; cbn [atom_ok aval] in *; lia.
Qed.
