(* Proofs/OutcomeP.v — C06: exactly one tagged response per command.  For command() of Model/Outcome.v that is a look at
   its cases ([one_tagged]).  For the world model the file has the notions (tagged response, notification, issuer,
   [answered_once], and [bQ]: the queues hold only notifications) and, per mailbox operation, that [bQ] is kept and
   that only notifications are sent; Proofs/OutcomeStep.v goes through the steps. *)
From Asimap Require Import Base.Res Spec.SetSem Model.Mbox Model.Outcome Proofs.MboxInv Proofs.MboxOut.
Open Scope Z_scope.

Lemma one_tagged o : o <> HFalse -> List.length (pushed o) = 1%nat.
Proof. destruct o; intros H; try reflexivity. congruence. Qed.
Lemma deferred_nothing : pushed HFalse = []. Proof. reflexivity. Qed.
Lemma survives o : keeps_connection o = true. Proof. reflexivity. Qed.

Definition is_tagged (r : resp) : bool := match r with ROk _ | RNo | RBad => true | _ => false end.
Definition is_note (r : resp) : bool :=
  match r with RExists _ _ | RRecent _ | RExpunge _ | RFetch _ _ _ _ => true | _ => false end.
Definition issuer (o : op) : option Z :=
  match o with
  | OSelect s _ _ | OUnselect s | OClose s | ONoop s | OCheck s | OIdle s | ODone s | OAppend s _ _ _ _
  | OStore s _ _ _ _ _ | OFetch s _ _ _ | OSearch s _ _ | OExpunge s _ | OCopy s _ _ _ | OMove s _ _ _ => Some s
  | _ => None
  end.
Definition o_is_idle (o : op) : bool := match o with OIdle _ => true | _ => false end.

Definition quiet_for (s : Z) (o : out) : Prop := forall r, In (s, r) o -> is_tagged r = false.
Definition answered_once (s : Z) (o : out) : Prop :=
  exists pre t, o = pre ++ [(s, t)] /\ is_tagged t = true /\ quiet_for s pre.

Definition notifs_only : out -> Prop := sent (fun r => is_note r = true).
Definition bQ (b : mbox) : Prop := forall s c, In (s, c) (b_clients b) -> forall r, In r (c_pend c) -> is_note r = true.
Definition wQ (w : world) : Prop := forall n b, get_box w n = Some b -> bQ b.

Lemma note_untagged r : is_note r = true -> is_tagged r = false. Proof. destruct r; cbn; congruence. Qed.
Lemma notifs_quiet s o : notifs_only o -> quiet_for s o.
Proof. intros H r Hin. apply note_untagged, (H s r Hin). Qed.
Lemma told_note r : told r = true -> is_note r = true. Proof. destruct r; cbn; congruence. Qed.

Lemma once_single s t : is_tagged t = true -> answered_once s [(s, t)].
Proof. intros H. exists [], t. repeat split; trivial. apply none_nil. Qed.
Lemma once_app s a o : quiet_for s a -> answered_once s o -> answered_once s (a ++ o).
Proof.
  intros Ha [pre [t [-> [Ht Hq]]]]. exists (a ++ pre), t. rewrite app_assoc.
  repeat split; [exact Ht|]. apply (none_app is_tagged); assumption.
Qed.
Lemma once_cons s s' r o : is_tagged r = false -> answered_once s o -> answered_once s ((s', r) :: o).
Proof. intros H. apply (once_app s [(s', r)]), none_one, H. Qed.

Lemma in_mbox_once w s k :
  (forall n b, get_box w n = Some b -> answered_once s (snd (k n b))) -> answered_once s (snd (in_mbox w s k)).
Proof.
  intros H. unfold in_mbox. destruct (sel w s) as [n|]; [|apply once_single; reflexivity].
  destruct (get_box w n) as [b|] eqn:E; [apply H; exact E|apply once_single; reflexivity].
Qed.

Lemma resync_Q b : bQ b -> bQ (fst (resync b)).
Proof. intros Hb s. exact (resync_queued _ told_note b s (Hb s)). Qed.
Lemma flush_Q b s : bQ b -> bQ (fst (flush b s)).
Proof.
  intros Hb. unfold flush. destruct (get_client b s) as [c|] eqn:G; [|exact Hb].
  intros s0 c0 Hin r Hr. apply upd_client_in in Hin. destruct Hin as [c1 [Hin1 Hc]].
  destruct (s0 =? s); subst c0; [cbn in Hr; destruct Hr|apply (Hb s0 c1 Hin1 r Hr)].
Qed.
Lemma upd_Q b s f : (forall c, c_pend (f c) = c_pend c) -> bQ b -> bQ (upd_client b s f).
Proof.
  intros Hf Hb s0 c0 Hin r Hr. apply upd_client_in in Hin. destruct Hin as [c1 [Hin1 Hc]].
  destruct (s0 =? s); subst c0; [rewrite Hf in Hr|]; apply (Hb s0 c1 Hin1 r Hr).
Qed.
Lemma upd_idle_Q b s i : bQ b -> bQ (upd_client b s (fun c => set_idle c i)).
Proof. apply upd_Q. reflexivity. Qed.
Lemma upd_deliver_Q b s rs : bQ b -> bQ (upd_client b s (fun c => deliver c rs)).
Proof. apply upd_Q. intros c. apply deliver_pend. Qed.
Lemma set_msgs_Q b ms : bQ b -> bQ (set_msgs b ms).
Proof. intros H. exact H. Qed.
Lemma with_disk_Q b d : bQ b -> bQ (with_disk b d).
Proof. intros H. exact H. Qed.
Lemma expunge_Q b del : bQ b -> bQ (fst (expunge b del)).
Proof.
  intros Hb s.
  exact (expunge_kept (fun r => is_note r = true) _ (queued_deliver _) (queued_pend _) b del s (fun _ => eq_refl) (Hb s)).
Qed.
Lemma dispatch_at_Q b d sl ms pos show : bQ b -> bQ (fst (dispatch b d (notes_at sl ms pos show))).
Proof. intros Hb s. exact (dispatch_notes_queued _ told_note b d sl ms pos show s (Hb s)). Qed.

Lemma resync_notifs b : notifs_only (snd (resync b)).
Proof. apply resync_sent, told_note. Qed.
Lemma flush_notifs b s : bQ b -> notifs_only (snd (flush b s)).
Proof. intros Hb. exact (flush_sent _ b s (Hb s)). Qed.
Lemma expunge_loop_notifs ps : forall b i, notifs_only (snd (expunge_loop b ps i)).
Proof.
  induction ps as [|p ps IH]; intros b i; cbn [expunge_loop]; [apply sent_nil|]. rewrite !let_pair. cbn [snd].
  apply sent_app; [apply dispatch_sent; intros r [<-|[]]; reflexivity|apply IH].
Qed.
Lemma expunge_notifs b del : notifs_only (snd (expunge b del)).
Proof. apply expunge_loop_notifs. Qed.
Lemma dispatch_notifs_at b d sl ms pos show : notifs_only (snd (dispatch b d (notes_at sl ms pos show))).
Proof. apply dispatch_notes_sent, told_note. Qed.
Lemma tag_notifs_at s sl ms pos show : notifs_only (tag s (notes_at sl ms pos show)).
Proof. intros s' r Hin. apply in_map_iff in Hin as (r0 & [= _ <-] & Hr). apply told_note, (notes_at_told _ _ _ _ _ Hr). Qed.

(* Everything a step sends before its last response is either sent by a mailbox operation, and then a
   notification (a flush sends a queue, which holds only notifications because [bQ] is kept by the operations
   before it), or one of the issuer's untagged data responses. *)
Create HintDb only_notifs.
#[export] Hint Resolve notifs_quiet resync_notifs flush_notifs expunge_notifs dispatch_notifs_at tag_notifs_at
  resync_Q flush_Q dispatch_at_Q expunge_Q upd_idle_Q upd_deliver_Q set_msgs_Q with_disk_Q : only_notifs.
