(* Proofs/MboxClosed.v — invariants of the form "every mailbox of the world satisfies P".
   [step] changes a world only by replacing a mailbox by the result of one of fourteen mailbox operations, by
   adding an empty mailbox, or by dropping every session; a predicate closed under these ([closed]) is kept by
   every step ([step_closed]).  P takes the mailbox's name as well, so that "not below the mailbox of that name
   in some earlier world" ([above], Proofs/MboxLe.v) is an instance.
   The FIFO/UID invariant [winv] is not one: [cl_upd] asks that P survive ANY change to a session that leaves
   its queue alone, while [cinv] survives handing a session responses only if they are legal on its view, and
   marking it idle only if its queue is empty - which a command knows at the point where it does so. *)
From Asimap Require Import Base.Res Spec.SetSem Model.Mbox Model.Phases Proofs.MboxInv Proofs.MboxStep.
Open Scope Z_scope.

Section Closed.
Variable P : string -> mbox -> Prop.

(* The side conditions are what [step] guarantees where it uses the operation: sessions are changed only
   outside their queues, a session joins with an empty queue, APPEND and STORE have refused reserved
   keywords, only a mailbox just resynced is packed; the copied messages come from a mailbox of the same world. *)
Record closed : Prop := {
  cl_resync n b : P n b -> P n (fst (resync b));
  cl_flush n b s : P n b -> P n (fst (flush b s));
  cl_notes n b d sl show : P n b -> P n (fst (dispatch b d (notes_at sl (b_msgs b) 1 show)));
  cl_expunge n b del : P n b -> P n (fst (expunge b del));
  cl_upd n b s f : (forall c, c_pend (f c) = c_pend c) -> P n b -> P n (upd_client b s f);
  cl_leave n b s : P n b -> P n (set_clients b (zalist_del (b_clients b) s));
  cl_join n b s c : c_pend c = [] -> P n b -> P n (set_clients b (b_clients b ++ [(s, c)]));
  cl_restart n b : P n b -> P n (set_clients b []);
  cl_deliver n b k (unseen : bool) cid0 date : P n b ->
    P n (with_disk b (add_files (b_disk b) (b_msgs b)
           (map (fun i => {| m_key := 0; m_uid := 0; m_cid := cid0 + Z.of_nat i; m_date := date;
                             m_seqs := if unseen then ["unseen"%string] else ["Seen"%string] |})
                (seq 0 (Z.to_nat k)))));
  cl_append n b flags date cid : existsb reserved_kw flags = false -> P n b ->
    P n (with_disk b (add_files (b_disk b) (b_msgs b)
           [{| m_key := 0; m_uid := 0; m_cid := cid; m_date := date; m_seqs := seqs_of_flags flags |}]));
  cl_copy n b n' src sl : P n' src -> P n b ->
    P n (with_disk b (add_files (b_disk b) (b_msgs b) (msgs_at (b_msgs src) sl)));
  cl_store n b act flags sl : existsb reserved_kw flags = false -> P n b ->
    P n (set_msgs b (map_at (apply_store act (map flag_to_seq flags)) sl (b_msgs b) 1));
  cl_touch n b k sl : P n b -> P n (set_msgs b (map_at (fetch_touch k) sl (b_msgs b) 1));
  cl_pack n w b : P n b -> P n (maybe_pack w (fst (resync b)))
}.

Definition wall (w : world) : Prop := forall n b, get_box w n = Some b -> P n b.

(* what a step makes of w: a world all of whose mailboxes satisfy P and that has lost none of w's names *)
Definition extends (w w' : world) : Prop := wall w' /\ forall n, get_box w n <> None -> get_box w' n <> None.

Lemma extends_refl w : wall w -> extends w w.
Proof. intros Hw. split; trivial. Qed.
Lemma extends_set_box w n b : wall w -> P n b -> extends w (set_box w n b).
Proof.
  intros Hw Hb. split.
  - intros n' x H. rewrite get_set_box in H. destruct (String.eqb n' n) eqn:En; [|exact (Hw _ _ H)].
    apply String.eqb_eq in En. inversion H; subst. exact Hb.
  - intros n' H. rewrite get_set_box. destruct (String.eqb n' n); [discriminate|exact H].
Qed.

Lemma extends_sel w s (dflt : world * out) k :
  wall w -> fst dflt = w -> (forall n b, get_box w n = Some b -> extends w (fst (k n b))) ->
  extends w (fst (match sel w s with
                  | Some n => match get_box w n with Some b => k n b | None => dflt end
                  | None => dflt
                  end)).
Proof.
  intros Hw Hi Hk. destruct (sel w s) as [n|]; [|rewrite Hi; apply extends_refl, Hw].
  destruct (get_box w n) as [b|] eqn:E; [apply Hk, E|rewrite Hi; apply extends_refl, Hw].
Qed.

Lemma extends_then a b c : extends a b -> (wall b -> extends b c) -> extends a c.
Proof. intros [W1 K1] H2. destruct (H2 W1) as [W2 K2]. split; auto. Qed.

Hypothesis HP : closed.

Lemma extends_unselect w s : wall w -> extends w (unselect w s).
Proof.
  intros Hw. unfold unselect. destruct (sel w s) as [n|]; [|apply extends_refl; exact Hw].
  destruct (get_box w n) as [b|] eqn:E; [|apply extends_refl; exact Hw].
  apply extends_set_box; [exact Hw|]. apply (cl_leave HP), (Hw _ _ E).
Qed.

(* APPEND flushes the issuer's queue on the mailbox it has selected, before and after *)
Lemma extends_flush_sel w s :
  wall w ->
  extends w (fst (match sel w s with
                  | Some n => match get_box w n with
                              | Some b => let '(b', o') := flush b s in (set_box w n b', o')
                              | None => (w, [])
                              end
                  | None => (w, [])
                  end)).
Proof.
  intros Hw. apply extends_sel; [exact Hw|reflexivity|]. intros n b E.
  rewrite let_pair. apply extends_set_box; [exact Hw|]. apply (cl_flush HP), (Hw _ _ E).
Qed.

Lemma extends_poll l : forall w o, wall w ->
  extends w (fst (fold_left (fun acc (nb : string * mbox) =>
                   let '(w1, o1) := acc in
                   match get_box w1 (fst nb) with
                   | None => acc
                   | Some b => let '(b', o') := resync b in
                               let b'' := match o' with [] => maybe_pack w1 b' | _ => b' end in
                               (set_box w1 (fst nb) b'', o1 ++ o')
                   end) l (w, o))).
Proof.
  induction l as [|nb l IH]; intros w o Hw; cbn [fold_left]; [apply extends_refl; exact Hw|].
  destruct (get_box w (fst nb)) as [b|] eqn:E; [|apply IH; exact Hw].
  rewrite let_pair. eapply extends_then; [|intros Hw1; apply IH, Hw1].
  apply extends_set_box; [exact Hw|]. destruct (snd (resync b)); [apply (cl_pack HP)|apply (cl_resync HP)]; apply (Hw _ _ E).
Qed.

Lemma extends_copy_into w n srcb sl dn w2 o2 src dstu :
  wall w -> P n srcb -> copy_into w srcb sl dn = Some (w2, o2, src, dstu) -> extends w w2.
Proof.
  intros Hw Hs. unfold copy_into. destruct (get_box w dn) as [db|] eqn:E; [|discriminate].
  destruct (b_msgs srcb) as [|m0 l0] eqn:Em; [intros [= <- _ _ _]; apply extends_refl; exact Hw|].
  rewrite <- Em, admit_is_resync, !let_pair. intros [= <- _ _ _]. apply extends_set_box; [exact Hw|].
  apply (cl_resync HP), (cl_copy HP _ _ n); [exact Hs|]. apply (cl_resync HP), (Hw _ _ E).
Qed.

(* FETCH, STORE, SEARCH, COPY and MOVE flush the issuer's queue and resync the mailbox before the command
   proper; the first three (and CHECK) flush once more, what the resync has queued *)
Lemma closed_admitted n b s : P n b -> P n (fst (resync (fst (flush b s)))).
Proof. intros H. apply (cl_resync HP), (cl_flush HP), H. Qed.
Lemma closed_let_through n b s : P n b -> P n (fst (flush (fst (resync (fst (flush b s)))) s)).
Proof. intros H. apply (cl_flush HP), closed_admitted, H. Qed.

(* the tail of EXPUNGE and MOVE: the issuer poses as idling while the mailbox is resynced and expunged *)
Lemma closed_expunged n b s del was :
  P n b -> P n (upd_client (fst (expunge (fst (resync (upd_client b s (fun c => set_idle c true)))) del)) s
                           (fun c => set_idle c was)).
Proof.
  intros H. apply (cl_upd HP); [reflexivity|]. apply (cl_expunge HP), (cl_resync HP), (cl_upd HP); [reflexivity|exact H].
Qed.

Lemma closed_body c w n b s exam sl : wall w -> P n b -> extends w (fst (body c w n b s exam sl)).
Proof.
  intros Hw H. destruct c as [u st act silent flags|u st k|u flag]; cbn [body]; unfold store_body, fetch_body, search_body.
  - destruct (smem "\Recent" flags || existsb reserved_kw flags) eqn:Er; [|rewrite let_pair]; cbn [fst];
      (apply extends_set_box; [exact Hw|]); [exact H|].
    apply orb_false_elim in Er as [_ Er]. apply (cl_upd HP); [intros c0; apply deliver_pend|].
    apply (cl_notes HP _ (set_msgs _ _)), (cl_store HP); assumption.
  - rewrite !let_pair. cbn [fst]. apply extends_set_box; [exact Hw|].
    apply (cl_flush HP), (cl_notes HP _ (set_msgs _ _)), (cl_touch HP _ (upd_client _ s _) k), (cl_upd HP);
      [intros c0; apply deliver_pend|exact H].
  - apply extends_set_box; assumption.
Qed.

Lemma split_closed w s c : wall w -> extends w (fst (step w (to_op s c))).
Proof.
  intros Hw. pose proof (extends_refl w Hw) as Same. rewrite step_eq. apply extends_sel; [exact Hw|reflexivity|].
  intros n b E. destruct (get_client b s) as [cl|]; [|exact Same].
  destruct (match c with PStore _ _ _ _ _ => c_exam cl | _ => false end); [exact Same|].
  destruct (gate b s (p_uid c) true) as [[b0 o0]|] eqn:G; [|exact Same]. apply gate_flush in G as [-> _].
  destruct (admitted c w n _) as [[[b1a o1a] sl]|] eqn:A;
    [|apply extends_set_box; [exact Hw|apply (cl_flush HP), (Hw _ _ E)]].
  apply admitted_ok in A as [-> _]. rewrite let_pair.
  pose proof (closed_body c w n _ s (c_exam cl) sl Hw (closed_let_through n b s (Hw _ _ E))) as H.
  destruct (body c w n _ s (c_exam cl) sl). exact H.
Qed.

(* Each case ends in one or two [set_box]es; the new mailbox is the old one under a chain of operations,
   which [let_pair] spells out and the fields of [closed] undo one by one. *)
Theorem step_closed w o :
  wall w -> (forall m, get_box w m = None -> P m (new_box (w_vv w + 1))) -> extends w (fst (step w o)).
Proof.
  intros Hw Hnew. pose proof (extends_refl w Hw) as Same. destruct o; unfold step, in_mbox; cbv beta iota.
  - (* OSelect *)
    apply (extends_then _ (unselect w s)); [apply extends_unselect, Hw|intros Hw1].
    destruct (get_box (unselect w s) (lower_inbox m)) as [b|] eqn:E; [|apply extends_refl; exact Hw1].
    rewrite admit_is_resync, let_pair. cbn [fst]. apply extends_set_box; [exact Hw1|].
    apply (cl_join HP); [reflexivity|]. apply (cl_resync HP), (Hw1 _ _ E).
  - (* OUnselect *)
    destruct (sel w s); [apply extends_unselect, Hw|exact Same].
  - (* OClose *)
    apply extends_sel; [exact Hw|reflexivity|]. intros n b E. destruct (get_client b s) as [c|]; [|exact Same].
    assert (H0 : P n (set_clients b (zalist_del (b_clients b) s))) by apply (cl_leave HP), (Hw _ _ E).
    destruct (c_exam c); [apply extends_set_box; trivial|].
    destruct (existsb (has_seq "Deleted") _); [|apply extends_set_box; trivial].
    rewrite admit_is_resync, !let_pair. cbn [fst]. apply extends_set_box; [exact Hw|].
    apply (cl_expunge HP), (cl_resync HP), H0.
  - (* ONoop *)
    apply extends_sel; [exact Hw|reflexivity|]. intros n b E.
    rewrite admit_is_resync, !let_pair. cbn [fst]. apply extends_set_box; [exact Hw|].
    apply (cl_flush HP), (cl_resync HP), (Hw _ _ E).
  - (* OCheck *)
    apply extends_sel; [exact Hw|reflexivity|]. intros n b E.
    rewrite let_pair, admit_is_resync, !let_pair. cbn [fst]. apply extends_set_box; [exact Hw|]. apply closed_let_through, (Hw _ _ E).
  - (* OIdle *)
    apply extends_sel; [exact Hw|reflexivity|]. intros n b E.
    rewrite let_pair. cbn [fst]. apply extends_set_box; [exact Hw|].
    apply (cl_upd HP); [reflexivity|]. apply (cl_flush HP), (Hw _ _ E).
  - (* ODone *)
    apply extends_sel; [exact Hw|reflexivity|]. intros n b E.
    rewrite let_pair. cbn [fst]. apply extends_set_box; [exact Hw|].
    apply (cl_flush HP), (cl_upd HP); [reflexivity|apply (Hw _ _ E)].
  - (* OAppend *)
    pose proof (extends_flush_sel w s Hw) as L0.
    destruct (match sel w s with Some _ => _ | None => _ end) as [w0 o0]. cbn [fst] in L0.
    apply (extends_then _ _ _ L0). intros Hw0.
    destruct (get_box w0 (lower_inbox m)) as [b|] eqn:E; [|apply extends_refl; exact Hw0].
    rewrite admit_is_resync, let_pair.
    assert (H1 : P (lower_inbox m) (fst (resync b))) by apply (cl_resync HP), (Hw0 _ _ E).
    destruct (existsb reserved_kw flags) eqn:Er; [cbn [fst]; apply extends_set_box; trivial|].
    rewrite !let_pair. cbn [fst]. eapply extends_then; [|intros Hw1; apply extends_flush_sel, Hw1].
    apply extends_set_box; [exact Hw0|]. apply (cl_resync HP), (cl_append HP); trivial.
  - exact (split_closed w s (PStore uidc set act silent flags) Hw).
  - exact (split_closed w s (PFetch uidc set k) Hw).
  - exact (split_closed w s (PSearch uidc flag) Hw).
  - (* OExpunge *)
    apply extends_sel; [exact Hw|reflexivity|]. intros n b E. destruct (get_client b s) as [c|]; [|exact Same].
    rewrite let_pair. assert (H0 : P n (fst (flush b s))) by apply (cl_flush HP), (Hw _ _ E).
    destruct (c_exam c); [cbn [fst]; apply extends_set_box; trivial|].
    destruct uset as [st|].
    + destruct (admit_set w n _ true st) as [[[b1 o1] sl]|] eqn:A.
      * apply admit_set_resync in A as [-> _]. rewrite let_pair. cbn [fst]. apply extends_set_box; [exact Hw|]. apply closed_expunged, H0.
      * cbn [fst]. apply extends_set_box; [exact Hw|]. do 2 (apply (cl_upd HP); [reflexivity|]). exact H0.
    + rewrite admit_is_resync, !let_pair. cbn [fst]. apply extends_set_box; [exact Hw|]. apply closed_expunged, H0.
  - (* OCopy *)
    apply extends_sel; [exact Hw|reflexivity|]. intros n b E. rewrite let_pair.
    destruct (admit_set w n _ uidc set) as [[[b1 o1] sl]|] eqn:A;
      [|cbn [fst]; apply extends_set_box; [exact Hw|apply (cl_flush HP), (Hw _ _ E)]].
    apply admit_set_resync in A as [A _]. assert (H1 : P n b1) by (subst b1; apply closed_admitted, (Hw _ _ E)).
    apply (extends_then _ (set_box w n b1)); [apply extends_set_box; trivial|intros Hw1].
    destruct (copy_into (set_box w n b1) b1 sl (lower_inbox dst)) as [[[[w2 o2] src] dstu]|] eqn:C; [|apply extends_refl; exact Hw1].
    exact (extends_copy_into _ _ _ _ _ _ _ _ _ Hw1 H1 C).
  - (* OMove *)
    apply extends_sel; [exact Hw|reflexivity|]. intros n b E. destruct (get_client b s) as [c|]; [|exact Same].
    destruct (c_exam c); [exact Same|]. rewrite let_pair.
    destruct (admit_set w n _ uidc set) as [[[b1 o1] sl]|] eqn:A;
      [|cbn [fst]; apply extends_set_box; [exact Hw|apply (cl_flush HP), (Hw _ _ E)]].
    apply admit_set_resync in A as [A _]. assert (H1 : P n b1) by (subst b1; apply closed_admitted, (Hw _ _ E)).
    apply (extends_then _ (set_box w n b1)); [apply extends_set_box; trivial|intros Hw1].
    destruct (copy_into (set_box w n b1) b1 sl (lower_inbox dst)) as [[[[w2 o2] src] dstu]|] eqn:C; [|apply extends_refl; exact Hw1].
    apply (extends_then _ w2); [exact (extends_copy_into _ _ _ _ _ _ _ _ _ Hw1 H1 C)|intros Hw2].
    destruct src as [|u0 src']; [apply extends_refl; exact Hw2|].
    destruct (get_box w2 n) as [sb|] eqn:E2; [|apply extends_refl; exact Hw2].
    rewrite let_pair, admit_is_resync, !let_pair. cbn [fst]. apply extends_set_box; [exact Hw2|].
    apply closed_expunged, (cl_flush HP), (Hw2 _ _ E2).
  - (* ODeliver *)
    destruct (get_box w m) as [b|] eqn:E; [|exact Same]. cbn [fst].
    apply extends_set_box; [exact Hw|]. apply (cl_deliver HP), (Hw _ _ E).
  - (* OPoll *)
    apply extends_poll. exact Hw.
  - (* OMkbox *)
    destruct (get_box w m) as [b|] eqn:E; [exact Same|]. cbn [fst].
    split; intros n'.
    + intros b' H. unfold get_box in H. cbn [w_boxes] in H. rewrite get_box_append in H.
      destruct (get_box w n') as [x|] eqn:E'; [inversion H; subst; apply (Hw _ _ E')|].
      destruct (String.eqb n' m) eqn:En; [|discriminate]. apply String.eqb_eq in En. inversion H; subst. apply Hnew, E.
    + intros H. unfold get_box. cbn [w_boxes]. rewrite get_box_append. destruct (get_box w n'); [discriminate|contradiction].
  - (* ORestart *)
    cbn [fst]. split; intros n'; unfold get_box; cbn [w_boxes]; rewrite get_box_map_clients.
    + intros b' H. destruct (alist_get (w_boxes w) n') as [b0|] eqn:E; [|discriminate]. inversion H; subst b'.
      apply (cl_restart HP), (Hw n' b0 E).
    + destruct (alist_get (w_boxes w) n'); [discriminate|contradiction].
Qed.

Hypothesis Pnew : forall n vv, P n (new_box vv).

Corollary step_wall w o : wall w -> wall (fst (step w o)).
Proof. intros Hw. apply step_closed; [exact Hw|]. intros m _. apply Pnew. Qed.

Theorem run_wall ops : forall w, wall w -> wall (fst (run w ops)).
Proof. intros w Hw. apply (fold_inv wall); [|exact Hw]. intros w1 outs o Hw1. rewrite let_pair. apply step_wall, Hw1. Qed.

Theorem reachable_wall a b c ops : wall (fst (run (init_world a b c) ops)).
Proof.
  apply run_wall. intros n bx H. rewrite (init_box _ _ _ _ _ H). apply Pnew.
Qed.
End Closed.
