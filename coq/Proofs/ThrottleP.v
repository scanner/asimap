(* Proofs/ThrottleP.v — the generated throttle (Gen/Throttle.v, from asimap/throttle.py)
   composed as do_login composes it refines the reference of Spec/RefThrottle.v (run_refines).
   The lemmas ref_* and eff_expires at the end speak of the reference alone; it is run_refines
   that makes them facts about the code. *)
From Asimap Require Import Base.Res Gen.Throttle Spec.RefThrottle Model.ThrottleM.
Open Scope Z_scope.

Lemma purge_time_is_interval : PURGE_TIME = interval.  Proof. reflexivity. Qed.
Lemma user_limit : MAX_USER_ATTEMPTS = user_threshold. Proof. reflexivity. Qed.
Lemma addr_limit : MAX_ADDR_ATTEMPTS = addr_threshold. Proof. reflexivity. Qed.

Definition fail_count (d : tdict) (k : string) : Z := if dict_mem d k then fst (dict_get (0, 0) d k) else 0.
Definition purge_key (d : tdict) (now : Z) (k : string) : tdict :=
  if dict_mem d k && (now - snd (dict_get (0, 0) d k) >? interval) then dict_del d k else d.
Definition record_failure (d : tdict) (now : Z) (k : string) : tdict := dict_set d k (fail_count d k + 1, now).

Lemma check_allow_shape now U A u a :
  check_allow now U A u a =
  let U' := purge_key U now u in let A' := purge_key A now a in
  Ok (U', A', negb ((fail_count U' u >? user_threshold) || (fail_count A' a >? addr_threshold))).
Proof.
  unfold check_allow. cbv zeta. rewrite purge_time_is_interval, user_limit, addr_limit.
  change (if dict_mem U u && _ then dict_del U u else U) with (purge_key U now u).
  change (if dict_mem A a && _ then dict_del A a else A) with (purge_key A now a).
  unfold fail_count.
  destruct (dict_mem _ u), (dict_mem _ a), (_ >? user_threshold), (_ >? addr_threshold); reflexivity.
Qed.

Lemma login_failed_shape now U A u a :
  login_failed now U A u a = Ok (record_failure U now u, record_failure A now a).
Proof. unfold login_failed, record_failure, fail_count. cbv zeta. destruct (dict_mem U u), (dict_mem A a); reflexivity. Qed.

Definition lookup (d : tdict) (k : string) : option (Z * Z) :=
  if dict_mem d k then Some (dict_get (0, 0) d k) else None.

(* What the dictionary holds under one key (e, as lookup gives it) against the reference's history
   h of that key, newest failure first; last is the time of the latest attempt handled.  An entry
   stands for the head of the history: its time is the newest recorded failure, its count the
   chain that ends there.  No entry: nothing was recorded, or the newest failure was already older
   than the interval at time last, so that the reference counts it as 0 from then on. *)
Definition key_ok (e : option (Z * Z)) (h : list Z) (last : Z) : Prop :=
  match e with
  | Some (c, t) => exists h', h = t :: h' /\ c = chain h /\ t <= last
  | None => match h with [] => True | t :: _ => interval < last - t end
  end.
Definition dict_ok (d : tdict) (h : hist) (last : Z) : Prop := forall k, key_ok (lookup d k) (h k) last.

Lemma key_ok_later e h last now : key_ok e h last -> last <= now -> key_ok e h now.
Proof.
  destruct e as [[c t]|]; cbn [key_ok].
  - intros [h' [E [Ec Ht]]] Hle; exists h'; repeat split; [exact E|exact Ec|lia].
  - destruct h as [|t h']; [trivial|lia].
Qed.

Lemma dict_ok_later d h last now : dict_ok d h last -> last <= now -> dict_ok d h now.
Proof. intros H Hle k. apply key_ok_later with last; [apply H|exact Hle]. Qed.

Lemma chain_cons t t' h : chain (t :: t' :: h) = if t - t' <=? interval then 1 + chain (t' :: h) else 1.
Proof. reflexivity. Qed.
Lemma chain_one t : chain [t] = 1.
Proof. reflexivity. Qed.

Lemma chain_pos h : h <> [] -> 1 <= chain h.
Proof.
  induction h as [|t h IH]; [congruence|intros _].
  cbn [chain]. destruct h as [|t' h']; [lia|].
  destruct (t - t' <=? interval); [|lia].
  assert (1 <= chain (t' :: h')) by (apply IH; congruence). lia.
Qed.

Lemma chain_eff t h : chain (t :: h) = 1 + eff h t.
Proof.
  destruct h as [|t' h']; [reflexivity|]. rewrite chain_cons. cbn [eff].
  destruct (t - t' <=? interval); reflexivity.
Qed.

Lemma lookup_del d k k' : lookup (dict_del d k) k' = if String.eqb k' k then None else lookup d k'.
Proof.
  unfold lookup. rewrite dict_mem_del. destruct (String.eqb k' k) eqn:E; [reflexivity|].
  rewrite (dict_get_del _ _ _ _ E). reflexivity.
Qed.
Lemma lookup_set d k v k' : lookup (dict_set d k v) k' = if String.eqb k' k then Some v else lookup d k'.
Proof.
  unfold lookup. rewrite dict_mem_set, dict_get_set. destruct (String.eqb k' k); reflexivity.
Qed.

Definition fresh_entry (d : tdict) (now : Z) (k : string) : Prop :=
  forall c t, lookup d k = Some (c, t) -> now - t <= interval.

Lemma purge_fresh d now k : fresh_entry (purge_key d now k) now k.
Proof.
  unfold fresh_entry, purge_key, lookup. intros c t.
  destruct (dict_mem d k) eqn:Hm; cbn [andb]; [|rewrite Hm; discriminate].
  destruct (now - snd (dict_get (0, 0) d k) >? interval) eqn:Hs.
  - rewrite dict_mem_del, String.eqb_refl. discriminate.
  - rewrite Hm. intros E. injection E as E. rewrite E in Hs. cbn [snd] in Hs. lia.
Qed.

(* only an entry older than the interval is purged, and then the history of its key no longer counts *)
Lemma purge_dict_ok d h now k : dict_ok d h now -> dict_ok (purge_key d now k) h now.
Proof.
  intros Hok. unfold purge_key. destruct (dict_mem d k && _) eqn:Hs; [|exact Hok].
  apply andb_prop in Hs. destruct Hs as [Hm Hs].
  intros k'. rewrite lookup_del. destruct (String.eqb_spec k' k) as [->|_]; [|apply Hok].
  specialize (Hok k). unfold lookup in Hok. rewrite Hm in Hok.
  destruct (dict_get (0, 0) d k) as [c t]. cbn [snd key_ok] in *. destruct Hok as [h' [-> _]]. lia.
Qed.

Lemma count_eff d h now k : dict_ok d h now -> fresh_entry d now k -> eff (h k) now = fail_count d k.
Proof.
  intros Hok Hf. specialize (Hok k). unfold fresh_entry, fail_count, lookup in *.
  destruct (dict_mem d k); cbn [key_ok] in Hok.
  - destruct (dict_get (0, 0) d k) as [c t]. destruct Hok as [h' [-> [-> _]]]. specialize (Hf _ _ eq_refl).
    cbn [fst eff]. destruct (now - t <=? interval) eqn:E; [reflexivity|lia].
  - destruct (h k) as [|t h']; cbn [eff]; [reflexivity|]. destruct (now - t <=? interval) eqn:E; [lia|reflexivity].
Qed.

Lemma record_ok d h now k :
  dict_ok d h now -> fresh_entry d now k -> dict_ok (record_failure d now k) (hupd h k now) now.
Proof.
  intros Hok Hf k'. unfold record_failure, hupd. rewrite lookup_set. destruct (String.eqb k' k); [|apply Hok].
  exists (h k). rewrite chain_eff, (count_eff d h now k Hok Hf). repeat split; lia.
Qed.

Definition st_ok (st : tstate) (hs : hist * hist) (last : Z) : Prop :=
  dict_ok (fst st) (fst hs) last /\ dict_ok (snd st) (snd hs) last.

Lemma step_refines st hs last a :
  st_ok st hs last -> last <= a_time a ->
  exists st', model_step st a = Ok (st', snd (ref_step hs a)) /\ st_ok st' (fst (ref_step hs a)) (a_time a).
Proof.
  destruct st as [U A], hs as [hu ha]. intros [HU HA] Hle. cbn [fst snd] in *.
  unfold model_step. rewrite check_allow_shape. cbv zeta.
  pose proof (purge_dict_ok _ _ _ (a_user a) (dict_ok_later _ _ _ _ HU Hle)) as HU1.
  pose proof (purge_dict_ok _ _ _ (a_addr a) (dict_ok_later _ _ _ _ HA Hle)) as HA1.
  pose proof (purge_fresh U (a_time a) (a_user a)) as FU. pose proof (purge_fresh A (a_time a) (a_addr a)) as FA.
  rewrite <- (count_eff _ _ _ _ HU1 FU), <- (count_eff _ _ _ _ HA1 FA). fold (refused hu ha a). unfold ref_step.
  destruct (refused hu ha a); cbn [negb].
  - eexists; split; [reflexivity|]. split; assumption.
  - destruct (a_pwok a).
    + eexists; split; [reflexivity|]. split; assumption.
    + rewrite login_failed_shape. eexists; split; [reflexivity|].
      split; cbn [fst snd]; apply record_ok; assumption.
Qed.

Theorem run_refines l : forall st hs last,
  st_ok st hs last -> monotone last l -> model_run st l = Ok (ref_run hs l).
Proof.
  induction l as [|a l IH]; intros st hs last Hok Hm; cbn [model_run ref_run]; [reflexivity|].
  destruct Hm as [Hle Hm].
  destruct (step_refines st hs last a Hok Hle) as [st' [Hs Hok']].
  rewrite Hs. destruct (ref_step hs a) as [hs' v] eqn:Er. cbn [fst snd] in *.
  rewrite (IH st' hs' (a_time a) Hok' Hm). reflexivity.
Qed.

Lemma init_ok last : st_ok model_init ref_init last.
Proof. split; intros k; cbn [model_init ref_init fst snd lookup dict_mem key_ok]; trivial. Qed.

Theorem throttle_refines l last : monotone last l -> model_run model_init l = Ok (ref_run ref_init l).
Proof. intros Hm. apply run_refines with last; [apply init_ok|exact Hm]. Qed.

Lemma ref_lockout hs a :
  (user_threshold < eff (fst hs (a_user a)) (a_time a) \/ addr_threshold < eff (snd hs (a_addr a)) (a_time a)) ->
  snd (ref_step hs a) = Throttled.
Proof.
  destruct hs as [hu ha]; cbn [fst snd]. intros H. unfold ref_step.
  replace (refused hu ha a) with true by (unfold refused; lia). reflexivity.
Qed.

Lemma ref_no_false_lockout hs a :
  eff (fst hs (a_user a)) (a_time a) <= user_threshold -> eff (snd hs (a_addr a)) (a_time a) <= addr_threshold ->
  snd (ref_step hs a) = (if a_pwok a then Granted else Denied).
Proof.
  destruct hs as [hu ha]; cbn [fst snd]. intros H1 H2. unfold ref_step.
  replace (refused hu ha a) with false by (unfold refused; lia). destruct (a_pwok a); reflexivity.
Qed.

Lemma ref_wrong_password_never_granted hs a : a_pwok a = false -> snd (ref_step hs a) <> Granted.
Proof.
  destruct hs as [hu ha]. intros H. unfold ref_step. destruct (refused hu ha a); cbn [snd]; [discriminate|].
  rewrite H. cbn [snd]. discriminate.
Qed.

Lemma eff_expires h now t h' : h = t :: h' -> interval < now - t -> eff h now = 0.
Proof. intros -> H. cbn [eff]. destruct (now - t <=? interval) eqn:E; [lia|reflexivity]. Qed.
