(* Proofs/SearchP.v — the evaluator of Model/SearchM.v computes the denotation of
   Spec/SearchSem.v, for every program and every mailbox. *)
From Asimap Require Import Base.Res Spec.SetSem Spec.SearchSem Model.SearchM Proofs.SeqSetP.
From Coq Require Import Sorting.Sorted ZifyBool.
Open Scope Z_scope.

Lemma prefix_spec p l : prefix p l = true <-> exists post, l = p ++ post.
Proof.
  revert l; induction p as [|x p IH]; intros l; cbn [prefix].
  - split; [intros _; exists l; reflexivity|reflexivity].
  - destruct l as [|y l].
    + split; [discriminate|intros [post H]; discriminate H].
    + rewrite andb_true_iff, IH, Z.eqb_eq. split.
      * intros [-> [post ->]]; exists post; reflexivity.
      * intros [post H]; cbn [app] in H; injection H as -> ->; split; [reflexivity|exists post; reflexivity].
Qed.

Lemma contains_spec p l : contains p l = true <-> substring p l.
Proof.
  unfold substring. induction l as [|y l IH]; cbn [contains]; rewrite orb_true_iff, prefix_spec.
  - split.
    + intros [[post H]|H]; [exists [], post; exact H|discriminate H].
    + intros [pre [post H]]. destruct pre as [|z pre]; [left; exists post; exact H|discriminate H].
  - rewrite IH. split.
    + intros [[post H]|[pre [post H]]]; [exists [], post; exact H|].
      exists (y :: pre), post; cbn [app]; f_equal; exact H.
    + intros [pre [post H]]. destruct pre as [|z pre].
      * left; exists post; exact H.
      * right; cbn [app] in H; injection H as _ H; exists pre, post; exact H.
Qed.

Lemma fold_byte_idem z : fold_byte (fold_byte z) = fold_byte z.
Proof. unfold fold_byte. destruct ((65 <=? z) && (z <=? 90)) eqn:E; [|rewrite E; reflexivity].
  destruct ((65 <=? z + 32) && (z + 32 <=? 90)) eqn:E2; [lia|reflexivity]. Qed.
Lemma lower_idem s : lower (lower s) = lower s.
Proof. unfold lower; rewrite map_map; apply map_ext; intros z; apply fold_byte_idem. Qed.

Lemma py_lower_is_lower : py_lower = lower.
Proof. reflexivity. Qed.

Lemma match_elt_spec n mx e : match_elt n mx e = true <-> in_elt mx e n.
Proof.
  destruct e as [|k|a b]; cbn [match_elt in_elt].
  - rewrite Z.eqb_eq; reflexivity.
  - rewrite Z.eqb_eq; split; intros H; symmetry; exact H.
  - rewrite !atom_or_aval. destruct (aval mx a >? aval mx b) eqn:E; cbn [fst snd]; lia.
Qed.

Lemma match_set_spec n mx s : match_set n mx s = true <-> in_set mx s n.
Proof.
  unfold match_set, in_set. rewrite existsb_exists, Exists_exists.
  split; intros [e [He H]]; exists e; (split; [exact He|]); apply match_elt_spec; exact H.
Qed.

Lemma zmem_In x l : zmem x l = true <-> In x l.
Proof.
  unfold zmem. rewrite existsb_exists. split.
  - intros [y [Hy E]]; apply Z.eqb_eq in E; subst; exact Hy.
  - intros H; exists x; split; [exact H|apply Z.eqb_refl].
Qed.

Lemma match_set_denote n mx s : match_set n mx s = zmem n (denote mx s).
Proof. apply eq_true_iff_eq. rewrite match_set_spec, zmem_In, in_denote. reflexivity. Qed.

(* key nests through a list (SParen), where the generated principle gives no hypothesis for the elements *)
Definition is_leaf (k : key) : bool :=
  match k with SNot _ | SOr _ _ | SParen _ => false | _ => true end.

Lemma key_ind2 (P : key -> Prop)
  (Hleaf : forall k, is_leaf k = true -> P k)
  (Hnot : forall k, P k -> P (SNot k))
  (Hor : forall a b, P a -> P b -> P (SOr a b))
  (Hparen : forall l, Forall P l -> P (SParen l)) : forall k, P k.
Proof.
  fix IH 1. intros k. destruct k; try (apply Hleaf; reflexivity).
  - apply Hnot, IH.
  - apply Hor; apply IH.
  - apply Hparen. revert l. fix IHl 1. intros [|x r]; [constructor|constructor; [apply IH|apply IHl]].
Qed.

Definition mkctx (mb : mailbox) (n : Z) (m : msg) : sctx :=
  {| c_msg := m; c_num := n; c_seq_max := Z.of_nat (List.length mb); c_uid_max := last (map m_uid mb) 0 |}.

Lemma seq_max_view mb : seq_max (map view mb) = Z.of_nat (List.length mb).
Proof. unfold seq_max; rewrite map_length; reflexivity. Qed.
Lemma uid_max_view mb : uid_max (map view mb) = last (map m_uid mb) 0.
Proof. unfold uid_max; rewrite map_map; reflexivity. Qed.

Lemma forallb_map_ext {A B} (f : B -> bool) (g : A -> B) (h : A -> bool) l :
  Forall (fun x => f (g x) = h x) l -> forallb f (map g l) = forallb h l.
Proof. induction 1 as [|x r Hx _ IH]; cbn [map forallb]; [reflexivity|rewrite Hx, IH; reflexivity]. Qed.

Lemma filter_sorted (f : Z -> bool) l : StronglySorted Z.lt l -> StronglySorted Z.lt (filter f l).
Proof.
  induction 1 as [|x l Hs IH Hall]; cbn [filter]; [constructor|].
  destruct (f x); [|exact IH]. constructor; [exact IH|].
  rewrite Forall_forall in *; intros z Hz; apply filter_In in Hz; apply Hall; tauto.
Qed.

Lemma filter_all (f : Z -> bool) l : (forall x, In x l -> f x = true) -> filter f l = l.
Proof.
  induction l as [|x l IH]; intros H; cbn [filter]; [reflexivity|].
  rewrite (H x (or_introl eq_refl)); f_equal; apply IH; intros y Hy; apply H; right; exact Hy.
Qed.

Lemma match_paren c l :
  match_op c (match map p_search_key l with [x] => x | l' => IAnd l' end)
  = forallb (match_op c) (map p_search_key l).
Proof.
  destruct (map p_search_key l) as [|x [|y r]]; [reflexivity| |reflexivity].
  cbn [forallb]; rewrite andb_true_r; reflexivity.
Qed.

Lemma match_header_view m f s :
  match_header m (py_lower f) (py_lower s) = has_header f s (view m).
Proof.
  unfold match_header, has_header, ci_contains; cbn [view f_hdrs].
  rewrite py_lower_is_lower, lower_idem; reflexivity.
Qed.

Lemma match_sat mb n m : forall k,
  match_op (mkctx mb n m) (p_search_key k) = sat (map view mb) n (view m) k.
Proof.
  apply key_ind2.
  - intros k Hl. destruct k; try discriminate Hl; clear Hl;
      cbn [p_search_key match_op sat mkctx c_msg c_num c_seq_max c_uid_max]; try reflexivity.
    + (* SNew *) cbn [forallb match_op]; rewrite andb_true_r; reflexivity.
    + (* SSince *) cbn [view f_iday]; apply Z.geb_leb.
    + (* SHeader *) apply match_header_view.
    + (* SLarger *) cbn [view f_size]; apply Z.gtb_ltb.
    + (* SUid *) rewrite uid_max_view; cbn [view f_uid]; apply match_set_denote.
    + (* SMsgSet *) rewrite seq_max_view; apply match_set_denote.
  - intros k IH; cbn [p_search_key match_op sat]; rewrite IH; reflexivity.
  - intros a b IHa IHb; cbn [p_search_key match_op sat]; rewrite IHa, IHb; reflexivity.
  - intros l IH; cbn [p_search_key sat]; rewrite match_paren. apply forallb_map_ext, IH.
Qed.

Lemma match_prog mb n m p :
  match_op (mkctx mb n m) (p_search p) = forallb (sat (map view mb) n (view m)) p.
Proof.
  unfold p_search; cbn [match_op]. apply forallb_map_ext, Forall_forall. intros k _. apply match_sat.
Qed.

Lemma py_range_nil a b : b <= a -> py_range a b = [].
Proof. intros H; unfold py_range; replace (Z.to_nat (b - a)) with 0%nat by lia; reflexivity. Qed.

Lemma py_range_cons a b : a < b -> py_range a b = a :: py_range (a + 1) b.
Proof.
  intros H; unfold py_range.
  replace (Z.to_nat (b - a)) with (S (Z.to_nat (b - (a + 1)))) by lia.
  cbn [seq map]. f_equal; [lia|].
  rewrite <- seq_shift, map_map. apply map_ext; intros i; lia.
Qed.

Lemma py_range_sorted a b : StronglySorted Z.lt (py_range a b).
Proof.
  unfold py_range. generalize (Z.to_nat (b - a)) as k. generalize 0%nat as s.
  intros s k; revert s; induction k as [|k IH]; intros s; cbn [seq map]; constructor; [apply IH|].
  rewrite Forall_forall; intros z Hz. apply in_map_iff in Hz. destruct Hz as [i [<- Hi]].
  apply in_seq in Hi. lia.
Qed.

Lemma msg_at_nth (mb : mailbox) i m :
  nth_error mb i = Some m -> msg_at (map view mb) (Z.of_nat i + 1) = Some (view m).
Proof.
  intros H. unfold msg_at. destruct (Z.of_nat i + 1 <? 1) eqn:E; [lia|].
  replace (Z.to_nat (Z.of_nat i + 1 - 1)) with i by lia. apply map_nth_error; exact H.
Qed.

Lemma search_loop_spec p fmb N U uid_cmd :
  (forall n m, match_op {| c_msg := m; c_num := n; c_seq_max := N; c_uid_max := U |} (p_search p)
               = forallb (sat fmb n (view m)) p) ->
  forall l idx,
  (forall i m, nth_error l i = Some m -> msg_at fmb (idx + Z.of_nat i + 1) = Some (view m)) ->
  search_loop (p_search p) N U uid_cmd idx l
  = map (fun n => if uid_cmd then uid_at fmb n else n)
        (filter (holds p fmb) (py_range (idx + 1) (idx + Z.of_nat (List.length l) + 1))).
Proof.
  intros Hm. induction l as [|m r IH]; intros idx Hat.
  - cbn [search_loop List.length]. rewrite py_range_nil by lia. reflexivity.
  - cbn [search_loop].
    rewrite py_range_cons by (cbn [List.length]; lia). cbn [filter].
    rewrite Hm.
    assert (H0 : msg_at fmb (idx + 1) = Some (view m)).
    { specialize (Hat 0%nat m eq_refl). replace (idx + Z.of_nat 0 + 1) with (idx + 1) in Hat by lia. exact Hat. }
    unfold holds at 1. rewrite H0.
    rewrite (IH (idx + 1)).
    2:{ intros i x Hi. specialize (Hat (S i) x Hi).
        replace (idx + 1 + Z.of_nat i + 1) with (idx + Z.of_nat (S i) + 1) by lia. exact Hat. }
    cbn [List.length].
    replace (idx + 1 + Z.of_nat (List.length r) + 1) with (idx + Z.of_nat (S (List.length r)) + 1) by lia.
    destruct (forallb (sat fmb (idx + 1) (view m)) p); [|reflexivity].
    cbn [app map]. f_equal. destruct uid_cmd; [|reflexivity].
    unfold uid_at; rewrite H0; reflexivity.
Qed.

Lemma mbox_search_spec p mb uid_cmd :
  mbox_search (p_search p) mb uid_cmd
  = map (fun n => if uid_cmd then uid_at (map view mb) n else n) (sem_search p (map view mb)).
Proof.
  unfold sem_search. rewrite seq_max_view.
  (* for every mb, and only then by cases: mbox_search has a case of its own for [], and after the
     split the length of the mailbox would read S (length r) *)
  assert (H : search_loop (p_search p) (Z.of_nat (List.length mb)) (last (map m_uid mb) 0) uid_cmd 0 mb
              = map (fun n => if uid_cmd then uid_at (map view mb) n else n)
                    (filter (holds p (map view mb)) (py_range 1 (Z.of_nat (List.length mb) + 1)))).
  { rewrite (search_loop_spec p (map view mb)).
    - reflexivity.
    - intros n m. apply (match_prog mb n m).
    - intros i m Hi. apply msg_at_nth; exact Hi. }
  destruct mb as [|m r]; [reflexivity|exact H].
Qed.

Theorem search_exact p mb : search_all p mb false = sem_search p (map view mb).
Proof. unfold search_all; rewrite mbox_search_spec; apply map_id. Qed.

Theorem search_uid_exact p mb : search_all p mb true = sem_uid_search p (map view mb).
Proof. unfold search_all; rewrite mbox_search_spec; reflexivity. Qed.

Theorem search_uid_map p mb :
  search_all p mb true = map (uid_at (map view mb)) (search_all p mb false).
Proof. rewrite search_uid_exact, search_exact; reflexivity. Qed.

Lemma msg_at_range mb n : msg_at mb n <> None <-> 1 <= n <= seq_max mb.
Proof.
  unfold msg_at, seq_max. destruct (n <? 1) eqn:E; [split; [congruence|lia]|].
  rewrite nth_error_Some. lia.
Qed.

Lemma holds_range p mb n : holds p mb n = true -> 1 <= n <= seq_max mb.
Proof.
  unfold holds. intros H. apply msg_at_range. destruct (msg_at mb n); [discriminate|discriminate H].
Qed.

Lemma in_sem_search p mb n : In n (sem_search p mb) <-> holds p mb n = true.
Proof.
  unfold sem_search. rewrite filter_In, in_py_range. split; [intros [_ H]; exact H|].
  intros H; split; [|exact H]. apply holds_range in H. lia.
Qed.

Theorem search_in p mb n :
  In n (search_all p mb false) <-> holds p (map view mb) n = true.
Proof. rewrite search_exact; apply in_sem_search. Qed.

Theorem search_sorted p mb : StronglySorted Z.lt (search_all p mb false).
Proof. rewrite search_exact; apply filter_sorted, py_range_sorted. Qed.

Lemma sem_ext p q mb :
  (forall n m, forallb (sat mb n m) p = forallb (sat mb n m) q) -> sem_search p mb = sem_search q mb.
Proof.
  intros H; unfold sem_search; apply filter_ext; intros n; unfold holds.
  destruct (msg_at mb n); [apply H|reflexivity].
Qed.

Lemma search_ext p q :
  (forall fmb n m, forallb (sat fmb n m) p = forallb (sat fmb n m) q) ->
  forall mb u, search_all p mb u = search_all q mb u.
Proof.
  intros H mb u. destruct u.
  - rewrite !search_uid_exact; unfold sem_uid_search; f_equal; apply sem_ext, H.
  - rewrite !search_exact; apply sem_ext, H.
Qed.

Theorem search_not_not k : forall mb u, search_all [SNot (SNot k)] mb u = search_all [k] mb u.
Proof. apply search_ext; intros; cbn [forallb sat]; rewrite negb_involutive; reflexivity. Qed.

Theorem search_or_comm a b : forall mb u, search_all [SOr a b] mb u = search_all [SOr b a] mb u.
Proof. apply search_ext; intros; cbn [forallb sat]; rewrite orb_comm; reflexivity. Qed.

Theorem search_de_morgan_or a b :
  forall mb u, search_all [SNot (SOr a b)] mb u = search_all [SNot a; SNot b] mb u.
Proof. apply search_ext; intros; cbn [forallb sat]; rewrite negb_orb, !andb_true_r; reflexivity. Qed.

Theorem search_de_morgan_and a b :
  forall mb u, search_all [SNot (SParen [a; b])] mb u = search_all [SOr (SNot a) (SNot b)] mb u.
Proof. apply search_ext; intros; cbn [forallb sat]; rewrite !andb_true_r, negb_andb; reflexivity. Qed.

Theorem search_paren l : forall mb u, search_all [SParen l] mb u = search_all l mb u.
Proof. apply search_ext; intros; cbn [forallb sat]; apply andb_true_r. Qed.

Theorem search_new : forall mb u, search_all [SNew] mb u = search_all [SRecent; SUnseen] mb u.
Proof. apply search_ext; intros; cbn [forallb sat]; rewrite <- andb_assoc; reflexivity. Qed.
Theorem search_old : forall mb u, search_all [SOld] mb u = search_all [SNot SRecent] mb u.
Proof. apply search_ext; intros; reflexivity. Qed.

Definition un_of (k : key) : option key :=
  match k with
  | SUnanswered => Some SAnswered | SUndeleted => Some SDeleted | SUndraft => Some SDraft
  | SUnflagged => Some SFlagged | SUnseen => Some SSeen | SUnkeyword kw => Some (SKeyword kw)
  | _ => None
  end.

Theorem search_un k k' : un_of k = Some k' -> forall mb u, search_all [k] mb u = search_all [SNot k'] mb u.
Proof.
  intros H. apply search_ext; intros.
  destruct k; try discriminate H; injection H as <-; reflexivity.
Qed.

Theorem search_not_complement k mb n :
  In n (search_all [SNot k] mb false) <->
  1 <= n <= Z.of_nat (List.length mb) /\ ~ In n (search_all [k] mb false).
Proof.
  rewrite !search_in, <- seq_max_view, <- msg_at_range. unfold holds.
  destruct (msg_at (map view mb) n) as [m|].
  - cbn [forallb sat]. rewrite !andb_true_r, negb_true_iff, not_true_iff_false. intuition discriminate.
  - intuition discriminate.
Qed.

Theorem search_or_union a b mb n :
  In n (search_all [SOr a b] mb false) <->
  In n (search_all [a] mb false) \/ In n (search_all [b] mb false).
Proof.
  rewrite !search_in. unfold holds. destruct (msg_at (map view mb) n) as [m|].
  - cbn [forallb sat]; rewrite !andb_true_r, orb_true_iff; reflexivity.
  - split; [discriminate|intros [H|H]; discriminate H].
Qed.

Theorem search_and_inter p q mb n :
  In n (search_all (p ++ q) mb false) <->
  In n (search_all p mb false) /\ In n (search_all q mb false).
Proof.
  rewrite !search_in. unfold holds. destruct (msg_at (map view mb) n) as [m|].
  - rewrite forallb_app, andb_true_iff; reflexivity.
  - split; [discriminate|intros [H _]; discriminate H].
Qed.

Theorem search_set_in s mb n :
  In n (search_all [SMsgSet s] mb false) <->
  1 <= n <= Z.of_nat (List.length mb) /\ in_set (Z.of_nat (List.length mb)) s n.
Proof.
  rewrite search_in, <- seq_max_view, <- msg_at_range. unfold holds.
  destruct (msg_at (map view mb) n) as [m|].
  - cbn [forallb sat]. rewrite andb_true_r, zmem_In, in_denote. intuition discriminate.
  - intuition discriminate.
Qed.

Theorem search_set_denote s mb :
  search_all [SMsgSet s] mb false
  = filter (fun n => (1 <=? n) && (n <=? Z.of_nat (List.length mb))) (denote (Z.of_nat (List.length mb)) s).
Proof.
  apply sorted_ext; [apply search_sorted|apply filter_sorted, denote_sorted|].
  intros n. rewrite search_set_in, filter_In, in_denote. split; intros [H1 H2]; (split; [|]); try assumption; lia.
Qed.

(* all numbers of the set in 1..N: exactly what the other commands address (C15) *)
Theorem search_set_denote_ok s mb :
  forallb (elt_ok (Z.of_nat (List.length mb))) s = true ->
  search_all [SMsgSet s] mb false = denote (Z.of_nat (List.length mb)) s.
Proof.
  intros Hok. rewrite search_set_denote. apply filter_all. intros n Hn.
  pose proof (denote_within _ _ _ Hok Hn). lia.
Qed.

Lemma msg_at_uid_in mb n m : msg_at (map view mb) n = Some m -> In (f_uid m) (map m_uid mb).
Proof.
  unfold msg_at. destruct (n <? 1); [discriminate|]. intros H. apply nth_error_In in H.
  apply in_map_iff in H. destruct H as [x [<- Hx]]. apply in_map_iff. exists x; split; [reflexivity|exact Hx].
Qed.

Theorem search_uid_set_in s mb u :
  In u (search_all [SUid s] mb true) <->
  In u (map m_uid mb) /\ in_set (last (map m_uid mb) 0) s u.
Proof.
  rewrite search_uid_exact. unfold sem_uid_search. rewrite in_map_iff, <- uid_max_view. split.
  - intros [n [Hu Hn]]. apply in_sem_search in Hn. unfold holds, uid_at in *.
    destruct (msg_at (map view mb) n) as [m|] eqn:E; [|discriminate]. subst u.
    cbn [forallb sat] in Hn; rewrite andb_true_r, zmem_In, in_denote in Hn.
    split; [eapply msg_at_uid_in; exact E|exact Hn].
  - intros [Hin Hs]. apply in_map_iff in Hin. destruct Hin as [x [<- Hx]].
    apply In_nth_error in Hx. destruct Hx as [i Hi].
    exists (Z.of_nat i + 1).
    pose proof (msg_at_nth mb i x Hi) as Hat.
    split; [unfold uid_at; rewrite Hat; reflexivity|].
    apply in_sem_search. unfold holds; rewrite Hat.
    cbn [forallb sat view f_uid]; rewrite andb_true_r, zmem_In, in_denote; exact Hs.
Qed.

(* example data of Properties/C14.v *)
Definition ex_b (s : string) : bstr := bytes_of_string s.
Definition ex_msg (uid : Z) (seqs : list string) (size iday : Z) (date : option Z) (subj body : string) : msg :=
  {| m_uid := uid; m_seqs := seqs; m_size := size; m_iday := iday; m_date := date;
     m_hdrs := [(ex_b "Subject", ex_b subj); (ex_b "Date", ex_b "x")];
     m_text := ex_b "Subject: " ++ ex_b subj ++ [13; 10; 13; 10] ++ ex_b body;
     m_body := ex_b body |}.
Definition ex_mb : mailbox :=
  [ ex_msg 3 ["Seen"; "kw"]%string       120 100 (Some 99)  "Hello World" "first BODY";
    ex_msg 5 ["Recent"; "unseen"]%string 300 101 (Some 101) "other"       "second hello";
    ex_msg 9 ["replied"; "Seen"; "Recent"]%string 50 102 None "third" "x" ].

