(* Proofs/ParseT.v — totality of the parser model: parse_core never runs out of fuel; the only exception
   besides BadCommand is ValueError (CValue), which IMAPClientCommand.parse reports as BadSyntax.
   Also: the unread rest is never longer than the input. *)
From Asimap Require Import Base.Res Base.Bytes Model.Lex Spec.Grammar Model.ParseM Proofs.LexP.
From Coq Require Import Lia ZArith List Bool.
Import ListNotations.
Open Scope Z_scope.

Definition good_res {A} (s : list Z) (x : pres A) : Prop :=
  match x with
  | ROk _ r => (List.length r <= List.length s)%nat
  | RBad => True
  | RCrash k => k = CValue
  end.
Definition good {A} (p : parser A) : Prop := forall s, good_res s (p s).

Lemma good_res_weaken {A} (s s' : list Z) (x : pres A) :
  (List.length s <= List.length s')%nat -> good_res s x -> good_res s' x.
Proof. destruct x; cbn; intros; try assumption. lia. Qed.

Lemma good_ret {A} (a : A) : good (pret a).
Proof. intros s. cbn. lia. Qed.
Lemma good_fail {A} : good (@pfail A).
Proof. intros s. exact I. Qed.
Lemma good_bind {A B} (p : parser A) (f : A -> parser B) : good p -> (forall a, good (f a)) -> good (pbind p f).
Proof.
  intros Hp Hf s. unfold pbind. specialize (Hp s). destruct (p s) as [a r| |k]; cbn in *; try assumption.
  eapply good_res_weaken; [exact Hp|apply Hf].
Qed.
Lemma good_pmap {A B} (g : A -> B) (p : parser A) : good p -> good (pmap g p).
Proof. intros Hp. unfold pmap. apply good_bind; [exact Hp|intros; apply good_ret]. Qed.

Lemma good_p_lit k : good (p_lit k).
Proof.
  intros s. unfold p_lit. destruct (match_ci k s) eqn:E; cbn; [|exact I]. apply match_ci_len in E. lia.
Qed.
Lemma good_try_many1 {A} p (f : list Z -> parser A) (q : parser A) :
  (forall a, good (f a)) -> good q ->
  good (fun s => match try_many1 p s with Some (a, r) => f a r | None => q s end).
Proof.
  intros Hf Hq s. unfold try_many1. pose proof (span_lengths p s) as H. destruct (span p s) as [a r]. cbn in H.
  destruct a; [apply Hq|]. eapply good_res_weaken; [|apply Hf]. lia.
Qed.
Lemma good_many1 p : good (p_many1 p).
Proof. intros s. rewrite p_many1_try. exact (good_try_many1 p (fun a => pret a) pfail (fun a => good_ret a) good_fail s). Qed.

Lemma good_try {A} k (p q : parser A) : good p -> good q ->
  good (fun s => match try_lit k s with Some r => p r | None => q s end).
Proof.
  intros Hp Hq s. unfold try_lit. destruct (match_ci k s) eqn:E; [|apply Hq].
  apply match_ci_len in E. eapply good_res_weaken; [|apply Hp]. lia.
Qed.
Lemma good_try_ret {A} k (a : A) q : good q -> good (fun s => match try_lit k s with Some r => ROk a r | None => q s end).
Proof. exact (good_try k (pret a) q (good_ret a)). Qed.
Lemma good_if {A} (b : list Z -> bool) (p q : parser A) : good p -> good q -> good (fun s => if b s then p s else q s).
Proof. intros Hp Hq s. destruct (b s); [apply Hp|apply Hq]. Qed.

Lemma good_int ds : good (p_int ds).
Proof. intros s. unfold p_int. destruct (int_ok ds); cbn; [lia|reflexivity]. Qed.
Lemma good_number : good p_number.
Proof. unfold p_number. apply good_bind; [apply good_many1|intros; apply good_int]. Qed.

Lemma scan_lit_ref_len s ds r : scan_lit_ref s = Some (ds, r) -> (List.length r <= List.length s)%nat.
Proof.
  unfold scan_lit_ref. destruct s as [|c s]; [discriminate|]. destruct (c =? 123); [|discriminate].
  pose proof (span_lengths is_digit s) as Hs. destruct (span is_digit s) as [d r1]. cbn in Hs.
  destruct d as [|d0 d]; [discriminate|].
  set (r2 := match r1 with p :: r' => if p =? 43 then r' else r1 | [] => r1 end).
  assert (H2 : (List.length r2 <= List.length r1)%nat).
  { unfold r2. destruct r1 as [|p r']; [lia|]. destruct (p =? 43); cbn [List.length]; lia. }
  destruct r2 as [|c1 [|c2 [|c3 r3]]]; try discriminate.
  destruct ((c1 =? 125) && (c2 =? 13) && (c3 =? 10)); [|discriminate].
  intros H. inversion H; subst. cbn [List.length] in *. lia.
Qed.

Lemma p_string_len s :
  match p_string s with
  | ROk v r => (List.length v + List.length r <= List.length s)%nat
  | RBad => True
  | RCrash k => k = CValue
  end.
Proof.
  unfold p_string. destruct (scan_quoted s) as [[b r]|] eqn:E.
  - apply scan_quoted_inv in E. lia.
  - destruct (scan_lit_ref s) as [[ds r]|] eqn:E2; [|exact I].
    apply scan_lit_ref_len in E2. unfold p_int. destruct (int_ok ds); [|reflexivity].
    destruct (Z.of_nat (List.length r) <? digits_val ds); [exact I|]. rewrite firstn_length, skipn_length. lia.
Qed.
Lemma good_string : good p_string.
Proof. intros s. pose proof (p_string_len s) as H. destruct (p_string s); cbn; [lia|exact I|exact H]. Qed.

Lemma good_tok_or_string p : good (tok_or_string p).
Proof. exact (good_try_many1 p (fun a => pret a) p_string (fun a => good_ret a) good_string). Qed.
Lemma good_astring : good p_astring.
Proof. exact (good_tok_or_string atom_char). Qed.
Lemma good_atom : good p_atom.
Proof. apply good_many1. Qed.
Lemma good_mailbox : good p_mailbox.
Proof. apply good_pmap. apply good_astring. Qed.
Lemma good_list_mailbox : good p_list_mailbox.
Proof. exact (good_tok_or_string list_char). Qed.
Lemma good_pattern : good p_list_mailbox_pattern.
Proof. apply good_pmap. apply good_list_mailbox. Qed.
Lemma good_flag : good p_flag.
Proof.
  exact (good_try [92] (pmap (fun a => 92 :: a) p_atom) p_atom (good_pmap _ _ good_atom) good_atom).
Qed.

(* seq_atom_val, seq_elt and seq_elts work on a piece cut out of the input; their rest is a dummy *)
Definition value_error_only {A} (x : pres A) : Prop := match x with RCrash k => k = CValue | _ => True end.
Lemma seq_atom_val_good piece : value_error_only (seq_atom_val piece).
Proof. unfold seq_atom_val. destruct (beq piece [42]); [exact I|]. destruct (int_ok piece); [exact I|reflexivity]. Qed.
Lemma seq_elt_good piece : value_error_only (seq_elt piece).
Proof.
  unfold seq_elt. destruct (seq_atom_ok piece).
  - pose proof (seq_atom_val_good piece) as H. destruct (seq_atom_val piece) as [[|n] ?| |k]; auto.
  - destruct (split_on 58 piece) as [|a [|b [|c l]]]; try exact I.
    destruct (seq_atom_ok a && seq_atom_ok b); [|exact I].
    pose proof (seq_atom_val_good a) as Ha. destruct (seq_atom_val a) as [x ?| |k]; auto.
    pose proof (seq_atom_val_good b) as Hb. destruct (seq_atom_val b) as [y ?| |k]; auto.
Qed.
Lemma seq_elts_good pieces : value_error_only (seq_elts pieces).
Proof.
  induction pieces as [|p ps IH]; cbn [seq_elts]; [exact I|].
  pose proof (seq_elt_good p) as H. destruct (seq_elt p) as [e ?| |k]; auto.
  destruct (seq_elts ps) as [es ?| |k]; auto.
Qed.
Lemma good_msg_set : good p_msg_set.
Proof.
  intros s. unfold p_msg_set. pose proof (span_lengths msgset_char s) as H. destruct (span msgset_char s) as [txt r]. cbn in H.
  destruct txt as [|c txt]; [exact I|].
  pose proof (seq_elts_good (split_on 44 (c :: txt))) as G. destruct (seq_elts (split_on 44 (c :: txt))); cbn in *; [lia|exact I|exact G].
Qed.

Lemma good_date : good p_date.
Proof.
  intros s. unfold p_date. destruct (scan_date s) as [[[[d m] y] r]|] eqn:E; [|exact I].
  apply scan_date_inv in E. destruct (date_ok y m d); cbn; [apply E|reflexivity].
Qed.
Lemma good_date_time : good p_date_time.
Proof.
  intros s. unfold p_date_time.
  destruct (scan_date_time s) as [[[[[[[[[[d m] y] h] mi] sec] neg] zh] zm] r]|] eqn:E; [|exact I].
  apply scan_date_time_inv in E.
  match goal with |- good_res _ (if ?b then _ else _) => destruct b end; cbn; [apply E|reflexivity].
Qed.

Lemma p_sp_shrinks r r' : p_sp r = ROk tt r' -> (List.length r' < List.length r)%nat.
Proof.
  unfold p_sp, p_lit. destruct (match_ci sp r) eqn:E; [|discriminate]. intros H. inversion H; subst.
  apply match_ci_len in E. cbn in E. lia.
Qed.

(* What the list loops hand on from the element parser: a condition q on the values, C on the crashes.
   good_res is the case of no condition on the value and C = "is ValueError"; ParseW asks for a q and lets
   C be anything.  The element parser is only run on inputs no longer than s. *)
Definition res_sat {A} (q : A -> bool) (C : crash -> Prop) (s : list Z) (x : pres A) : Prop :=
  match x with
  | ROk a r => q a = true /\ (List.length r <= List.length s)%nat
  | RBad => True
  | RCrash k => C k
  end.
Lemma good_sat {A} s (x : pres A) : good_res s x -> res_sat (fun _ => true) (fun k => k = CValue) s x.
Proof. destruct x; cbn; auto. Qed.
Lemma sat_good {A} (q : A -> bool) s (x : pres A) : res_sat q (fun k => k = CValue) s x -> good_res s x.
Proof. destruct x; cbn; tauto. Qed.

Lemma paren_list_loop_sat {A} (q : A -> bool) C (elem : parser A) : forall fuel s, (List.length s < fuel)%nat ->
  (forall s', (List.length s' <= List.length s)%nat -> res_sat q C s' (elem s')) ->
  res_sat (forallb q) C s (paren_list_loop elem fuel s).
Proof.
  induction fuel as [|f IH]; intros s Hlen He; [lia|]. cbn [paren_list_loop].
  pose proof (He s (Nat.le_refl _)) as Hs. destruct (elem s) as [a r| |k]; cbn in Hs; [destruct Hs as [Ha Hr]|exact I|exact Hs].
  unfold try_lit. destruct (match_ci [41] r) eqn:E1.
  - apply match_ci_len in E1. cbn in *. rewrite Ha. split; [reflexivity|lia].
  - destruct (p_sp r) as [[] r'| |k] eqn:E2; [|exact I|].
    + apply p_sp_shrinks in E2. specialize (IH r' ltac:(lia) (fun s' H => He s' ltac:(lia))).
      destruct (paren_list_loop elem f r') as [l r''| |k]; cbn in *; [|exact I|exact IH].
      rewrite Ha. split; [apply IH|lia].
    + unfold p_sp, p_lit in E2. destruct (match_ci sp r); discriminate.
Qed.
Lemma paren_list_of_sat {A} (q : A -> bool) C (elem : parser A) s :
  (forall s', (List.length s' <= List.length s)%nat -> res_sat q C s' (elem s')) ->
  res_sat (forallb q) C s (p_paren_list_of elem s).
Proof.
  intros He. unfold p_paren_list_of, p_lit. destruct (match_ci [40] s) as [r|] eqn:E; [|exact I]. apply match_ci_len in E.
  unfold try_lit. destruct (match_ci [41] r) eqn:E1.
  - apply match_ci_len in E1. cbn in *. split; [reflexivity|lia].
  - pose proof (paren_list_loop_sat q C elem (S (List.length r)) r ltac:(lia) (fun s' H => He s' ltac:(lia))) as H.
    destruct (paren_list_loop elem (S (List.length r)) r); cbn in *; [split; [apply H|lia]|exact I|exact H].
Qed.
Lemma good_paren_list_of {A} (elem : parser A) : good elem -> good (p_paren_list_of elem).
Proof. intros He s. eapply sat_good, paren_list_of_sat. intros s' _. apply good_sat, He. Qed.

Definition nonempty_all {A} (q : A -> bool) (l : list A) : bool := match l with [] => false | _ => forallb q l end.
Lemma list_loop_sat {A} (q : A -> bool) C (elem : parser A) : forall fuel s, (List.length s < fuel)%nat ->
  (forall s', (List.length s' <= List.length s)%nat -> res_sat q C s' (elem s')) ->
  res_sat (nonempty_all q) C s (list_loop elem fuel s).
Proof.
  induction fuel as [|f IH]; intros s Hlen He; [lia|]. cbn [list_loop].
  pose proof (He s (Nat.le_refl _)) as Hs. destruct (elem s) as [a r| |k]; cbn in Hs; [destruct Hs as [Ha Hr]|exact I|exact Hs].
  unfold try_lit. destruct (match_ci sp r) as [r'|] eqn:E1; [|cbn; rewrite Ha; split; [reflexivity|exact Hr]].
  apply match_ci_len in E1. cbn in E1. specialize (IH r' ltac:(lia) (fun s' H => He s' ltac:(lia))).
  destruct (list_loop elem f r') as [l r''| |k]; cbn in *; [|exact I|exact IH].
  destruct IH as [Hl Hr']. split; [|lia]. destruct l; [discriminate|]. cbn [forallb] in *. rewrite Ha. exact Hl.
Qed.
Lemma good_list_of {A} (elem : parser A) : good elem -> good (p_list_of elem).
Proof. intros He s. eapply sat_good, list_loop_sat; [apply Nat.lt_succ_diag_r|]. intros s' _. apply good_sat, He. Qed.

(* The parsers are sequences of pbind over named parsers.  With the combinator lemmas and one lemma per named
   parser as hints, matched syntactically (a named parser is never unfolded to find a pbind in it), auto walks them.
   Every pbind of a row takes one level of the search (the rest of the row is the second premise of good_bind):
   the depth is that of the longest row, p_store, plus one. *)
Create HintDb good discriminated.
#[local] Hint Resolve good_bind good_ret good_fail good_p_lit good_many1 good_paren_list_of good_list_of good_pmap
  good_number good_string good_astring good_atom good_mailbox good_list_mailbox good_pattern
  good_flag good_msg_set good_date good_date_time : good.
#[local] Hint Extern 0 (good p_sp) => apply good_p_lit : good.

Lemma good_status_att : good p_status_att.
Proof.
  unfold p_status_att. generalize status_atts. induction l as [|a l IH]; cbn [p_status_att_from]; [apply good_fail|].
  apply good_try_ret, IH.
Qed.

Lemma good_partial : good p_partial.
Proof. unfold p_partial. auto 9 with good. Qed.
#[local] Hint Resolve good_status_att good_partial : good.

Lemma section_nums_sat (q : Z -> bool) C : forall fuel s, (List.length s < fuel)%nat ->
  (forall s', (List.length s' <= List.length s)%nat -> res_sat q C s' (p_number s')) ->
  res_sat (forallb q) C s (section_nums fuel s).
Proof.
  induction fuel as [|f IH]; intros s Hlen He; [lia|]. cbn [section_nums].
  pose proof (He s (Nat.le_refl _)) as G.
  destruct (p_number s) as [n r| |k] eqn:E; cbn in G; [destruct G as [Hn G]|cbn; split; [reflexivity|lia]|exact G].
  assert (Hlt : (List.length r < List.length s)%nat).
  { unfold p_number, pbind in E. pose proof (span_lengths is_digit s) as Hs. unfold p_many1 in E.
    destruct (span is_digit s) as [a r0]. destruct a as [|c a]; [discriminate|].
    unfold p_int in E. destruct (int_ok (c :: a)); [inversion E; subst; cbn in Hs; lia|discriminate]. }
  unfold p_lit. destruct (match_ci [46] r) as [r'|] eqn:E2; [|cbn; rewrite Hn; split; [reflexivity|exact G]].
  apply match_ci_len in E2. specialize (IH r' ltac:(lia) (fun s' H => He s' ltac:(lia))).
  destruct (section_nums f r') as [l r''| |k]; cbn in *; [|exact I|exact IH]. rewrite Hn. split; [apply IH|lia].
Qed.
Lemma section_nums_good fuel s : (List.length s < fuel)%nat -> good_res s (section_nums fuel s).
Proof. intros Hlen. eapply sat_good, section_nums_sat; [exact Hlen|]. intros s' _. apply good_sat, good_number. Qed.

Lemma first_lit_len {A} (tbl : list (list Z * A)) s a r :
  first_lit tbl s = Some (a, r) -> (List.length r <= List.length s)%nat.
Proof.
  induction tbl as [|[x b] tbl IH]; cbn [first_lit]; [discriminate|].
  unfold try_lit. destruct (match_ci x s) eqn:E; [|exact IH].
  intros H. inversion H; subst. apply match_ci_len in E. lia.
Qed.

Lemma good_section : good p_section.
Proof.
  unfold p_section. apply good_bind; [apply good_p_lit|intros _].
  intros s. pose proof (section_nums_good (S (List.length s)) s ltac:(lia)) as G.
  destruct (section_nums (S (List.length s)) s) as [nums r| |k]; cbn in G; [|exact I|exact G].
  eapply good_res_weaken; [exact G|].
  unfold try_lit. destruct (match_ci [93] r) eqn:E; [apply match_ci_len in E; cbn in *; lia|].
  destruct (first_lit (section_texts (match nums with [] => false | _ => true end)) r) as [[tk r1]|] eqn:E1; [|exact I].
  apply first_lit_len in E1. eapply good_res_weaken; [exact E1|].
  assert (Hf : forall neg, good (p_sp ;;; hl <- p_paren_list_of p_astring ;;
                                 match hl with [] => pfail | _ => p_lit [93] ;;; pret (nums, Some (TxFields neg hl)) end)%parser).
  { intros neg. apply good_bind; [apply good_p_lit|intros _].
    apply good_bind; [apply good_paren_list_of; apply good_astring|intros hl].
    destruct hl; [apply good_fail|]. apply good_bind; [apply good_p_lit|intros; apply good_ret]. }
  destruct tk; [apply Hf|apply Hf| | |]; (apply good_bind; [apply good_p_lit|intros; apply good_ret]).
Qed.

Lemma good_body_rest peek : good (p_body_rest peek).
Proof.
  unfold p_body_rest. apply good_bind; [apply good_section|intros sec].
  apply (good_if (peek_lit [60])); [auto 9 with good|apply (good_ret (FBody peek sec None))].
Qed.
Lemma good_fetch_att : good p_fetch_att.
Proof.
  unfold p_fetch_att. apply good_bind; [apply good_many1|intros tok].
  destruct (lookup fetch_toks (lower_s tok)) as [[o| | | | |]|]; cbn [fetch_dispatch];
    try apply good_ret; try apply good_fail; try apply good_body_rest.
  apply (good_if (peek_lit [91]) (p_body_rest false) (fun s => ROk FBodyShort s));
    [apply good_body_rest|apply (good_ret FBodyShort)].
Qed.
Lemma good_fetch_atts : good p_fetch_atts.
Proof.
  unfold p_fetch_atts. apply (good_if (peek_lit [40])); [apply good_paren_list_of; apply good_fetch_att|].
  apply good_try_ret, good_try_ret, good_try_ret, good_pmap. apply good_fetch_att.
Qed.

Lemma good_lower_astring : good p_lower_astring.
Proof. apply good_pmap. apply good_astring. Qed.
#[local] Hint Resolve good_section good_body_rest good_fetch_att good_fetch_atts good_lower_astring : good.

Lemma good_search_dispatch nested t : good nested -> good (search_dispatch nested t).
Proof.
  intros Hn. destruct t as [[]|]; cbn [search_dispatch]; auto 9 with good.
Qed.
Lemma good_search_key_body nested : good nested -> good (search_key_body nested).
Proof.
  intros Hn. unfold search_key_body. apply (good_if (peek_lit [40])).
  - intros s. pose proof (good_paren_list_of nested Hn s) as G.
    destruct (p_paren_list_of nested s) as [[|k [|k2 l]] r| |k]; exact G.
  - apply (good_try_many1 search_char (fun tok => search_dispatch nested (lookup search_toks (lower_s tok)))).
    + intros tok. apply good_search_dispatch. exact Hn.
    + apply good_pmap. apply good_msg_set.
Qed.
Lemma good_search_key d : good (p_search_key d).
Proof.
  induction d as [|d IH]; cbn [p_search_key]; apply good_search_key_body; [apply good_fail|exact IH].
Qed.

Lemma good_sel_item : good p_sel_item.
Proof. unfold p_sel_item. apply good_bind; [apply good_atom|intros a]. destruct (lookup sel_toks (lower_s a)); auto 9 with good. Qed.
Lemma good_select_options : good p_select_options.
Proof.
  unfold p_select_options. apply good_bind; [apply good_paren_list_of; apply good_sel_item|intros l]. cbv zeta.
  match goal with |- good (if ?b then _ else _) => destruct b end; auto 9 with good.
Qed.
Lemma good_ret_item : good p_ret_item.
Proof.
  unfold p_ret_item. apply good_bind; [apply good_atom|intros a].
  destruct (beq (lower_s a) (bs "status")).
  - apply good_bind; [apply good_p_lit|intros _].
    apply good_bind; [apply good_paren_list_of; apply good_status_att|intros st].
    destruct st; [apply good_fail|apply good_ret].
  - destruct (lookup ret_toks (lower_s a)); [apply good_ret|apply good_fail].
Qed.
#[local] Hint Resolve good_search_key good_sel_item good_select_options good_ret_item : good.
Lemma good_return_options : good p_return_options.
Proof. unfold p_return_options. auto 9 with good. Qed.

Lemma good_list_sel : good p_list_sel.
Proof. unfold p_list_sel. apply (good_if (peek_lit [40])); [auto 9 with good|apply (good_ret sel_none)]. Qed.
Lemma good_list_pats : good p_list_pats.
Proof. unfold p_list_pats. apply (good_if (peek_lit [40])); auto 9 with good. Qed.
#[local] Hint Resolve good_return_options good_list_sel good_list_pats : good.
Lemma good_list_ret : good p_list_ret.
Proof. unfold p_list_ret. apply (good_try sp); [auto 9 with good|apply (good_ret (ret_none, []))]. Qed.
#[local] Hint Resolve good_list_ret : good.

Lemma good_list lsub : good (p_list lsub).
Proof. unfold p_list. auto 9 with good. Qed.

Lemma good_id_pair : good p_id_pair.
Proof.
  unfold p_id_pair. apply good_bind; [apply good_string|intros k]. apply good_bind; [apply good_p_lit|intros _].
  apply good_try_ret. auto 9 with good.
Qed.
#[local] Hint Resolve good_list good_id_pair : good.
Lemma good_id : good p_id.
Proof.
  unfold p_id. apply good_bind; [apply good_p_lit|intros _]. unfold p_id_params.
  apply good_try_ret.
  apply (good_if (peek_lit [40])); [auto 9 with good|apply good_fail].
Qed.

Lemma good_append_flags : good p_append_flags.
Proof. unfold p_append_flags. apply (good_if (peek_lit [40])); [auto 9 with good|apply (good_ret [])]. Qed.
Lemma good_append_date : good p_append_date.
Proof. unfold p_append_date. apply (good_if (peek_lit [34])); [auto 9 with good|apply (good_ret None)]. Qed.
#[local] Hint Resolve good_id good_append_flags good_append_date : good.
Lemma good_append : good p_append.
Proof. unfold p_append. auto 9 with good. Qed.

Lemma good_store_action : good p_store_action.
Proof.
  intros s. unfold p_store_action. destruct s as [|c r]; cbn; [lia|].
  destruct (c =? 45); [cbn; lia|]. destruct (c =? 43); cbn; lia.
Qed.
Lemma good_store_silent : good p_store_silent.
Proof.
  unfold p_store_silent.
  apply good_try_ret, (good_ret false).
Qed.
Lemma good_store_flags : good p_store_flags.
Proof. unfold p_store_flags. apply (good_if (peek_lit [40])); auto 9 with good. Qed.
#[local] Hint Resolve good_append good_store_action good_store_silent good_store_flags : good.
Lemma good_store uid : good (p_store uid).
Proof. unfold p_store. auto 9 with good. Qed.

Lemma good_search_charset : good p_search_charset.
Proof. unfold p_search_charset. apply (good_try (bs "charset")); [auto 9 with good|apply (good_ret (bs "us-ascii"))]. Qed.
#[local] Hint Resolve good_store good_search_charset : good.
Lemma good_search uid : good (p_search uid).
Proof. unfold p_search. auto 9 with good. Qed.
#[local] Hint Resolve good_search : good.

Lemma good_command_body uid t : good (p_command_body uid t).
Proof. destruct t; cbn [p_command_body]; try (destruct uid); auto 9 with good. Qed.
Lemma good_command t : good (p_command t).
Proof.
  destruct t; try apply (good_command_body false).
  cbn [p_command]. apply good_bind; [apply good_p_lit|intros _]. apply good_bind; [apply good_atom|intros c].
  destruct (lookup cmd_toks (lower_s c)) as [t'|]; [|apply good_fail].
  destruct (is_uid_command t'); [apply good_command_body|apply good_fail].
Qed.
#[local] Hint Resolve good_command : good.
Theorem good_parse_core : good parse_core.
Proof.
  unfold parse_core. apply good_bind; [apply good_many1|intros tag]. apply good_bind; [apply good_p_lit|intros _].
  apply good_bind; [apply good_atom|intros c].
  destruct (lookup cmd_toks (lower_s c)) as [t|]; [|apply good_fail]. auto 9 with good.
Qed.

Theorem parse_never_crashes s : parse s <> PCrash.
Proof.
  unfold parse. pose proof (good_parse_core s) as G. destruct (parse_core s) as [a r| |k]; cbn in G; try discriminate.
  subst k. discriminate.
Qed.
Theorem parse_strict_never_crashes s : parse_strict s <> PCrash.
Proof.
  unfold parse_strict. pose proof (good_parse_core s) as G. destruct (parse_core s) as [a r| |k]; cbn in G.
  - destruct (at_end r); discriminate.
  - discriminate.
  - subst k. discriminate.
Qed.
Theorem parse_rest_bounded s : (List.length (parse_rest s) <= List.length s)%nat.
Proof.
  unfold parse_rest. pose proof (good_parse_core s) as G. destruct (parse_core s) as [a r| |k]; cbn in *; lia.
Qed.
