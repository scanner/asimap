(* Proofs/MboxLe.v — the step relation on mailboxes behind C02 and C03: UIDNEXT never decreases,
   UIDVALIDITY never changes, and every message of the new list is either an old message with the
   same UID, content and internal date, or a new one whose UID is at least the old UIDNEXT. *)
From Asimap Require Import Base.Res Spec.SetSem Model.Mbox Proofs.MboxInv Proofs.MboxStep Proofs.MboxClosed Proofs.MboxExact.
Open Scope Z_scope.

Definition same_msg (m m' : msg) : Prop := m_uid m' = m_uid m /\ m_cid m' = m_cid m /\ m_date m' = m_date m.
Definition box_le (b b' : mbox) : Prop :=
  b_next b <= b_next b' /\ b_vv b' = b_vv b /\
  (forall m', In m' (b_msgs b') -> (exists m, In m (b_msgs b) /\ same_msg m m') \/ b_next b <= m_uid m').

Lemma same_msg_refl m : same_msg m m. Proof. repeat split. Qed.
Lemma same_msg_trans a b c : same_msg a b -> same_msg b c -> same_msg a c.
Proof. intros [A1 [A2 A3]] [B1 [B2 B3]]. repeat split; congruence. Qed.

Lemma box_le_sub b b' :
  b_next b' = b_next b -> b_vv b' = b_vv b ->
  (forall m', In m' (b_msgs b') -> exists m, In m (b_msgs b) /\ same_msg m m') -> box_le b b'.
Proof. intros H1 H2 H. repeat split; [lia|exact H2|]. intros m' Hm. left. apply H, Hm. Qed.

Lemma box_le_incl b b' : b_next b' = b_next b -> b_vv b' = b_vv b -> incl (b_msgs b') (b_msgs b) -> box_le b b'.
Proof. intros H1 H2 H. apply box_le_sub; trivial. intros m' Hm. exists m'. split; [apply H, Hm|apply same_msg_refl]. Qed.

Lemma box_le_refl b : box_le b b.
Proof. apply box_le_incl; trivial. apply incl_refl. Qed.

Lemma box_le_trans a b c : box_le a b -> box_le b c -> box_le a c.
Proof.
  intros [A1 [A2 A3]] [B1 [B2 B3]]. repeat split; [lia|congruence|].
  intros m' H. destruct (B3 m' H) as [[m [Hm Hs]]|Hf]; [|right; lia].
  destruct (A3 m Hm) as [[m0 [Hm0 Hs0]]|Hf0].
  - left. exists m0. split; [exact Hm0|eapply same_msg_trans; eauto].
  - right. destruct Hs as [Hu _]. lia.
Qed.

Lemma box_le_same b b' : b_msgs b' = b_msgs b -> b_next b' = b_next b -> b_vv b' = b_vv b -> box_le b b'.
Proof. intros H1 H2 H3. apply box_le_incl; trivial. rewrite H1. apply incl_refl. Qed.

Lemma le_flush b s : box_le b (fst (flush b s)).
Proof. destruct (flush_msgs b s) as [A [B [C _]]]. apply box_le_same; trivial. Qed.
Lemma le_dispatch b d rs : box_le b (fst (dispatch b d rs)).
Proof. destruct (dispatch_msgs b d rs) as [A [B [C _]]]. apply box_le_same; trivial. Qed.
Lemma le_upd_client b s f : box_le b (upd_client b s f).
Proof. apply box_le_same; reflexivity. Qed.
Lemma le_set_clients b cs : box_le b (set_clients b cs).
Proof. apply box_le_same; reflexivity. Qed.
Lemma le_with_disk b d : box_le b (with_disk b d).
Proof. apply box_le_same; reflexivity. Qed.

Lemma le_resync b : box_le b (fst (resync b)).
Proof.
  destruct (resync_data b) as [S1 [S2 [S3 _]]].
  repeat split; [rewrite S2; pose proof (zlen_nonneg (fresh_of b)); lia|exact S3|].
  rewrite S1. intros m' H. apply in_app_or in H. destruct H as [H|H].
  - left. exists m'. split; [exact H|apply same_msg_refl].
  - right. destruct (assign_uids_spec (sort_by_key (b_disk b)) (b_next b)) as [_ [Af _]].
    fold (fresh_of b) in Af. rewrite Forall_forall in Af. specialize (Af (m_uid m') (in_map m_uid _ _ H)). cbv beta in Af. lia.
Qed.

Lemma le_expunge b del : box_le b (fst (expunge b del)).
Proof.
  destruct (expunge_rest b del) as [A [B _]]. apply box_le_incl; trivial. rewrite expunge_exact. apply incl_filter.
Qed.

Lemma le_map_at b f sl : (forall m, same_msg m (f m)) -> box_le b (set_msgs b (map_at f sl (b_msgs b) 1)).
Proof.
  intros Hf. apply box_le_sub; [reflexivity..|]. intros m' H. apply in_map_at in H. destruct H as [m [Hm [->| ->]]];
    exists m; (split; [exact Hm|]); [apply same_msg_refl|apply Hf].
Qed.

Lemma in_renumber l k m' : In m' (renumber l k) -> exists m, In m l /\ same_msg m m'.
Proof.
  revert k; induction l as [|m l IH]; intros k H; cbn [renumber] in H; [destruct H|].
  destruct H as [<-|H]; [exists m; split; [left; reflexivity|repeat split]|].
  destruct (IH _ H) as [m0 [H1 H2]]. exists m0. split; [right; exact H1|exact H2].
Qed.
Lemma le_maybe_pack w b : box_le b (maybe_pack w b).
Proof.
  unfold maybe_pack. destruct (should_pack w b); [|apply box_le_refl].
  apply box_le_sub; [reflexivity..|]. intros m'. apply in_renumber.
Qed.

Definition world_le (w w' : world) : Prop :=
  forall n b, get_box w n = Some b -> exists b', get_box w' n = Some b' /\ box_le b b'.

Lemma world_le_refl w : world_le w w.
Proof. intros n b H. exists b. split; [exact H|apply box_le_refl]. Qed.
Lemma world_le_trans a b c : world_le a b -> world_le b c -> world_le a c.
Proof.
  intros H1 H2 n x Hx. destruct (H1 n x Hx) as [y [Hy Lxy]]. destruct (H2 n y Hy) as [z [Hz Lyz]].
  exists z. split; [exact Hz|eapply box_le_trans; eauto].
Qed.
Definition above (w0 : world) (n : string) (b' : mbox) : Prop := forall b, get_box w0 n = Some b -> box_le b b'.

Lemma above_le w0 n b b' : box_le b b' -> above w0 n b -> above w0 n b'.
Proof. intros L H b0 E. exact (box_le_trans _ _ _ (H b0 E) L). Qed.

Lemma above_closed w0 : closed (above w0).
Proof.
  split; intros n.
  - intros b. apply above_le, le_resync.
  - intros b s. apply above_le, le_flush.
  - intros b d sl show. apply above_le, le_dispatch.
  - intros b del. apply above_le, le_expunge.
  - intros b s f _. apply above_le, le_upd_client.
  - intros b s. apply above_le, le_set_clients.
  - intros b s c _. apply above_le, le_set_clients.
  - intros b. apply above_le, le_set_clients.
  - intros b k unseen cid0 date. apply above_le, le_with_disk.
  - intros b flags date cid _. apply above_le, le_with_disk.
  - intros b n' src sl _. apply above_le, le_with_disk.
  - intros b act flags sl _. apply above_le, le_map_at. intros m. destruct act; repeat split.
  - intros b k sl. apply above_le, le_map_at. intros m. destruct k; repeat split.
  - intros w b. apply above_le. exact (box_le_trans _ _ _ (le_resync b) (le_maybe_pack w _)).
Qed.

Theorem step_le w o : world_le w (fst (step w o)).
Proof.
  destruct (step_closed _ (above_closed w) w o) as [A K].
  - intros n b E b0 E0. rewrite E in E0. inversion E0. apply box_le_refl.
  - intros m E b E0. congruence.
  - intros n b E. destruct (get_box (fst (step w o)) n) as [b'|] eqn:E'; [|destruct (K n); congruence].
    exists b'. split; [reflexivity|exact (A _ _ E' _ E)].
Qed.

Theorem run_le ops : forall w, world_le w (fst (run w ops)).
Proof.
  intros w. apply (fold_inv (world_le w)); [|apply world_le_refl].
  intros w1 outs o H. rewrite let_pair. exact (world_le_trans _ _ _ H (step_le w1 o)).
Qed.

Lemma step_le_box w o n b : get_box w n = Some b -> exists b', get_box (fst (step w o)) n = Some b' /\ box_le b b'.
Proof. exact (step_le w o n b). Qed.
Lemma run_le_box ops w n b : get_box w n = Some b -> exists b', get_box (fst (run w ops)) n = Some b' /\ box_le b b'.
Proof. exact (run_le ops w n b). Qed.
