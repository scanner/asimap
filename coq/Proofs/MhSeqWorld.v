(* Proofs/MhSeqWorld.v — Model/MhSeq.v meets the world model (Model/Mbox.v): the sequences the
   server holds are the transpose (seqs_of_msgs) of the per-message sequence names of the world
   model; after the server has written `.mh_sequences`, an MH tool reads, for every message the
   server knows, exactly the sequence names the world model gives that message (C13: "MH tools see
   IMAP flag changes"). *)
From Asimap Require Import Base.Res Model.Mbox Model.MhSeq Proofs.MhSeqP Proofs.MboxUid Proofs.MboxKeys.
From Coq Require Import Sorting.Sorted.
Open Scope Z_scope.

Definition seqs_of_msgs (names : list string) (msgs : list msg) : seqs :=
  map (fun n => (n, map m_key (filter (has_seq n) msgs))) names.

Lemma in_transpose names msgs name k :
  In k (seq_of (seqs_of_msgs names msgs) name) <->
  In name names /\ exists m, In m msgs /\ m_key m = k /\ has_seq name m = true.
Proof.
  unfold seqs_of_msgs, seq_of. induction names as [|n names IH]; cbn [map dict_get In].
  - split; [intros []|intros [[] _]].
  - destruct (String.eqb_spec name n) as [->|NE].
    + rewrite in_map_iff. split.
      * intros [m [Hk Hf]]. apply filter_In in Hf as [Hin Hs]. split; [left; reflexivity|exists m; auto].
      * intros [_ [m [Hin [Hk Hs]]]]. exists m. split; [exact Hk|apply filter_In; auto].
    + rewrite IH. split; intros [H1 H2]; (split; [|exact H2]); [right; exact H1|].
      destruct H1 as [E|H1]; [congruence|exact H1].
Qed.

Theorem transpose_spec names msgs name m :
  NoDup (map m_key msgs) -> In m msgs -> In name names ->
  (In (m_key m) (seq_of (seqs_of_msgs names msgs) name) <-> has_seq name m = true).
Proof.
  intros Hnd Hm Hn. rewrite in_transpose. split.
  - intros [_ [m' [Hin' [Hk Hs]]]]. rewrite <- (NoDup_map_inj m_key msgs m' m Hnd Hin' Hm Hk). exact Hs.
  - intros Hs. split; [exact Hn|exists m; auto].
Qed.

Theorem transpose_only_names names msgs name k :
  In k (seq_of (seqs_of_msgs names msgs) name) -> exists m, In m msgs /\ m_key m = k /\ has_seq name m = true.
Proof. intros H. apply in_transpose in H. apply H. Qed.

(* the end-to-end statement: whatever the folder's file said before (deliveries not taken in yet,
   stale entries), whatever the server has just removed, after the write the file lists a message
   the server knows under a name exactly when the world model's message carries that name *)
Theorem mh_tool_reads_world_flags names msgs forget folder name m :
  StronglySorted Z.lt (map m_key msgs) -> Forall (fun k => 0 <= k) (map m_key msgs) ->
  In m msgs -> In name names ->
  (In (m_key m) (seq_of (written (map m_key msgs) (seqs_of_msgs names msgs) forget folder) name)
   <-> has_seq name m = true).
Proof.
  intros Hs Hp Hm Hn. rewrite written_known_sorted by (assumption || apply in_map, Hm).
  apply transpose_spec; [apply sorted_lt_NoDup, Hs|exact Hm|exact Hn].
Qed.

(* ... and in every reachable world the hypotheses hold (Proofs/MboxKeys.v), so the statement is about
   every mailbox after any history of commands, deliveries, packs and restarts *)
Theorem reachable_mh_tool_reads_world_flags ps pn pd ops n b names forget folder name m :
  get_box (fst (run (init_world ps pn pd) ops)) n = Some b ->
  In m (b_msgs b) -> In name names ->
  (In (m_key m) (seq_of (written (map m_key (b_msgs b)) (seqs_of_msgs names (b_msgs b)) forget folder) name)
   <-> has_seq name m = true).
Proof.
  intros H Hm Hn. destruct (reachable_keys_ascending ps pn pd ops n b H) as [Hs Hp].
  apply mh_tool_reads_world_flags; assumption.
Qed.
