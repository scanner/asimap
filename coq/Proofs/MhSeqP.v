(* Proofs/MhSeqP.v — membership characterisations of Model/MhSeq.v (C13). *)
From Asimap Require Import Base.Res Model.MhSeq.
From Coq Require Import Sorting.Sorted.
Open Scope Z_scope.

Lemma zmem_In k l : zmem k l = true <-> In k l.
Proof.
  unfold zmem. rewrite existsb_exists. split.
  - intros [x [Hx E]]. apply Z.eqb_eq in E. subst. exact Hx.
  - intros H. exists k. split; [exact H|apply Z.eqb_refl].
Qed.

Lemma negb_zmem k l : negb (zmem k l) = true <-> ~ In k l.
Proof. rewrite negb_true_iff, <- not_true_iff_false, zmem_In. reflexivity. Qed.

Lemma in_newer highest forget keys k :
  In k (newer highest forget keys) <-> In k keys /\ highest < k /\ ~ In k forget.
Proof. unfold newer. rewrite filter_In, andb_true_iff, Z.ltb_lt, negb_zmem. reflexivity. Qed.

Lemma seq_of_set s name v name' :
  seq_of (dict_set s name v) name' = if String.eqb name' name then v else seq_of s name'.
Proof. unfold seq_of. apply dict_get_set. Qed.

(* both writers add keys to a sequence in the same way: with no keys to add the dict is left alone *)
Lemma seq_of_add out n nw name :
  seq_of (match nw with [] => out | _ => dict_set out n (seq_of out n ++ nw) end) name
  = if String.eqb name n then seq_of out n ++ nw else seq_of out name.
Proof.
  destruct nw; [|apply seq_of_set].
  destruct (String.eqb_spec name n) as [->|_]; [symmetry; apply app_nil_r|reflexivity].
Qed.

Lemma merge_folder_spec highest forget folder : forall out name k,
  In k (seq_of (merge_folder highest forget out folder) name) <->
  In k (seq_of out name) \/
  (exists keys, In (name, keys) folder /\ In k keys /\ highest < k /\ ~ In k forget).
Proof.
  induction folder as [|[n keys] rest IH]; intros out name k; cbn [merge_folder In].
  - split; [intros H; left; exact H|]. intros [H|[ks [[] _]]]. exact H.
  - rewrite IH, seq_of_add. clear IH.
    destruct (String.eqb_spec name n) as [->|NE]; [rewrite in_app_iff, in_newer|]; split.
    + intros [[H|H]|[ks [Hin Hr]]]; eauto 6.
    + intros [H|[ks [[Heq|Hin] Hr]]]; [auto| |eauto]. injection Heq as ->. auto.
    + intros [H|[ks [Hin Hr]]]; eauto 6.
    + intros [H|[ks [[Heq|Hin] Hr]]]; [auto| |eauto]. congruence.
Qed.

Theorem written_spec msg_keys s forget folder name k :
  In k (seq_of (written msg_keys s forget folder) name) <->
  In k (seq_of s name) \/
  (exists keys, In (name, keys) folder /\ In k keys /\ highest_key msg_keys < k /\ ~ In k forget).
Proof. apply merge_folder_spec. Qed.

Theorem written_known_exact msg_keys s forget folder name k :
  k <= highest_key msg_keys ->
  (In k (seq_of (written msg_keys s forget folder) name) <-> In k (seq_of s name)).
Proof.
  intros Hk. rewrite written_spec. split; [|intros H; left; exact H].
  intros [H|[ks [_ [_ [Hh _]]]]]; [exact H|lia].
Qed.

Theorem written_keeps_newer msg_keys s forget folder name keys k :
  In (name, keys) folder -> In k keys -> highest_key msg_keys < k -> ~ In k forget ->
  In k (seq_of (written msg_keys s forget folder) name).
Proof. intros H1 H2 H3 H4. apply written_spec. right. exists keys. repeat split; assumption. Qed.

Theorem written_forgets msg_keys s forget folder name k :
  In k forget -> (In k (seq_of (written msg_keys s forget folder) name) <-> In k (seq_of s name)).
Proof.
  intros Hf. rewrite written_spec. split; [|intros H; left; exact H].
  intros [H|[ks [_ [_ [_ Hn]]]]]; [exact H|contradiction].
Qed.

(* the server's key list is strictly ascending, so its last element is its maximum:
   "k <= highest" covers every message the server knows *)
Lemma sorted_le_last l d k : StronglySorted Z.lt l -> In k l -> k <= last l d.
Proof.
  intros Hs. revert k. induction Hs as [|a l Hs IH Ha]; intros k Hin; [destruct Hin|]. destruct l as [|b l'].
  - destruct Hin as [<-|[]]. cbn [last]. lia.
  - change (last (a :: b :: l') d) with (last (b :: l') d).
    destruct Hin as [<-|Hin]; [|apply IH; exact Hin].
    specialize (IH b (or_introl eq_refl)). apply Forall_inv in Ha. lia.
Qed.

Theorem written_known_sorted msg_keys s forget folder name k :
  StronglySorted Z.lt msg_keys -> Forall (fun x => 0 <= x) msg_keys -> In k msg_keys ->
  (In k (seq_of (written msg_keys s forget folder) name) <-> In k (seq_of s name)).
Proof. intros Hs _ Hin. apply written_known_exact, sorted_le_last; assumption. Qed.

Lemma seq_of_update_seen msg_keys s recent name :
  seq_of (update_seen msg_keys s recent) name
  = if String.eqb name "Recent" then seq_of s "Recent" ++ recent
    else if String.eqb name "Seen"
         then match seq_of s "unseen" with
              | [] => msg_keys
              | _ => filter (fun k => negb (zmem k (seq_of s "unseen"))) msg_keys
              end
         else seq_of s name.
Proof. unfold update_seen. rewrite seq_of_add, !seq_of_set. reflexivity. Qed.

Theorem update_seen_seen msg_keys s recent k :
  In k (seq_of (update_seen msg_keys s recent) "Seen") <-> In k msg_keys /\ ~ In k (seq_of s "unseen").
Proof.
  rewrite seq_of_update_seen. cbn [String.eqb Ascii.eqb Bool.eqb].
  destruct (seq_of s "unseen") as [|u us]; [cbn [In]; tauto|].
  rewrite filter_In, negb_zmem. reflexivity.
Qed.

Theorem update_seen_recent msg_keys s recent k :
  In k (seq_of (update_seen msg_keys s recent) "Recent") <-> In k (seq_of s "Recent") \/ In k recent.
Proof. rewrite seq_of_update_seen. apply in_app_iff. Qed.

Theorem update_seen_others msg_keys s recent name :
  name <> "Seen"%string -> name <> "Recent"%string ->
  seq_of (update_seen msg_keys s recent) name = seq_of s name.
Proof.
  intros N1 N2. rewrite seq_of_update_seen.
  destruct (String.eqb_spec name "Recent"); [contradiction|].
  destruct (String.eqb_spec name "Seen"); [contradiction|reflexivity].
Qed.

Theorem update_seen_idempotent msg_keys s recent name k :
  In k (seq_of (update_seen msg_keys (update_seen msg_keys s recent) []) name) <->
  In k (seq_of (update_seen msg_keys s recent) name).
Proof.
  destruct (String.eqb_spec name "Seen") as [->|NS].
  - rewrite !update_seen_seen. rewrite (update_seen_others msg_keys s recent "unseen") by discriminate. reflexivity.
  - destruct (String.eqb_spec name "Recent") as [->|NR].
    + rewrite (update_seen_recent msg_keys (update_seen msg_keys s recent) []). cbn [In]. intuition.
    + rewrite (update_seen_others msg_keys (update_seen msg_keys s recent) [] name) by assumption. reflexivity.
Qed.
