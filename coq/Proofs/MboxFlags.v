(* Proofs/MboxFlags.v — in every reachable world every message (known or still on disk) has
   `Seen` and `unseen` as exact complements (C04, C13). *)
From Asimap Require Import Base.Res Spec.SetSem Model.Mbox Model.Phases Proofs.MboxInv Proofs.MboxStep Proofs.MboxClosed Proofs.MboxExact Proofs.FlagsP.
Local Open Scope string_scope.
Local Open Scope Z_scope.

Definition mP (m : msg) : Prop := cpl (m_seqs m).
Definition bP (b : mbox) : Prop := Forall mP (b_msgs b) /\ Forall mP (b_disk b).
Definition wP (w : world) : Prop := forall n b, get_box w n = Some b -> bP b.

Lemma bP_same b b' : b_msgs b' = b_msgs b -> b_disk b' = b_disk b -> bP b -> bP b'.
Proof. unfold bP. intros -> ->. trivial. Qed.

Lemma insert_Forall (P : msg -> Prop) m l : P m -> Forall P l -> Forall P (insert_by_key m l).
Proof.
  intros Hm. induction l as [|x l IH]; intros H; cbn [insert_by_key]; [constructor; trivial|].
  inversion H; subst. destruct (m_key m <? m_key x)%Z; constructor; auto.
Qed.
Lemma sort_Forall (P : msg -> Prop) l : Forall P l -> Forall P (sort_by_key l).
Proof. induction 1 as [|x l Hx _ IH]; cbn; [constructor|]. apply insert_Forall; trivial. Qed.
Lemma assign_Forall l : forall u, Forall mP l -> Forall mP (assign_uids l u).
Proof.
  induction l as [|m l IH]; intros u H; cbn [assign_uids]; [constructor|]. inversion H; subst.
  constructor; [unfold mP; cbn [m_seqs]; apply cpl_sadd; trivial|apply IH; trivial].
Qed.

Lemma resync_bP b : bP b -> bP (fst (resync b)).
Proof.
  intros [H1 H2]. destruct (resync_data b) as [S1 [_ [_ S4]]]. unfold bP. rewrite S1, S4. split; [|constructor].
  apply Forall_app; split; [exact H1|]. apply assign_Forall, sort_Forall, H2.
Qed.

Lemma flush_bP b s : bP b -> bP (fst (flush b s)).
Proof. destruct (flush_msgs b s) as [A [_ [_ D]]]. apply bP_same; trivial. Qed.
Lemma dispatch_bP b d rs : bP b -> bP (fst (dispatch b d rs)).
Proof. destruct (dispatch_msgs b d rs) as [A [_ [_ D]]]. apply bP_same; trivial. Qed.
Lemma upd_bP b s f : bP b -> bP (upd_client b s f). Proof. apply bP_same; reflexivity. Qed.
Lemma setc_bP b cs : bP b -> bP (set_clients b cs). Proof. apply bP_same; reflexivity. Qed.

Lemma remove_at_Forall' (P : msg -> Prop) i l : Forall P l -> Forall P (remove_at i l).
Proof. apply remove_at_Forall. Qed.

Lemma expunge_bP b del : bP b -> bP (fst (expunge b del)).
Proof.
  intros [H1 H2]. unfold bP. rewrite expunge_exact, (proj2 (proj2 (expunge_rest b del))). split; [|exact H2].
  rewrite Forall_forall in *. intros m Hm. apply filter_In in Hm. apply H1. tauto.
Qed.

Lemma filed_Forall fs : forall k, Forall mP fs -> Forall mP (filed fs k).
Proof. induction fs as [|f fs IH]; intros k H; cbn [filed]; [constructor|]. inversion H; subst. constructor; [exact H2|apply IH; trivial]. Qed.
Lemma with_disk_bP b fs : bP b -> Forall mP fs -> bP (with_disk b (add_files (b_disk b) (b_msgs b) fs)).
Proof.
  intros [H1 H2] Hf. split; [exact H1|]. cbn [with_disk b_disk]. rewrite add_files_spec. apply Forall_app; split; [exact H2|].
  apply filed_Forall. exact Hf.
Qed.

Lemma map_at_Forall f sl l : forall pos, (forall m, mP m -> mP (f m)) -> Forall mP l -> Forall mP (map_at f sl l pos).
Proof.
  intros pos Hf H. rewrite Forall_forall in *. intros m' Hm. apply in_map_at in Hm as [m [Hm [->| ->]]]; auto.
Qed.
Lemma set_msgs_bP b ms : Forall mP ms -> bP b -> bP (set_msgs b ms).
Proof. intros H [_ H2]. split; trivial. Qed.
Lemma renumber_Forall l : forall k, Forall mP l -> Forall mP (renumber l k).
Proof. induction l as [|m l IH]; intros k H; cbn [renumber]; [constructor|]. inversion H; subst. constructor; [exact H2|apply IH; trivial]. Qed.
Lemma maybe_pack_bP w b : bP b -> bP (maybe_pack w b).
Proof. intros H. unfold maybe_pack. destruct (should_pack w b); [|exact H]. apply set_msgs_bP; [apply renumber_Forall; apply H|exact H]. Qed.

Lemma msgs_at_Forall ms sl : Forall mP ms -> Forall mP (msgs_at ms sl).
Proof.
  intros H. unfold msgs_at. induction sl as [|p sl IH]; cbn [flat_map]; [constructor|].
  apply Forall_app; split; [|exact IH]. destruct (znth ms (p - 1)) as [m|] eqn:E; [|constructor].
  constructor; [|constructor]. rewrite Forall_forall in H. apply H.
  unfold znth in E. destruct (p - 1 <? 0); [discriminate|]. eapply nth_error_In; exact E.
Qed.

Lemma no_unseen_seq flags : existsb reserved_kw flags = false -> smem "unseen" (map flag_to_seq flags) = false.
Proof.
  induction flags as [|f fl IH]; intros H; [reflexivity|]. cbn [existsb] in H. apply orb_false_elim in H. destruct H as [Hf Hr].
  cbn [map smem existsb]. fold (smem "unseen" (map flag_to_seq fl)). rewrite (IH Hr), orb_false_r.
  unfold reserved_kw, smem in Hf. cbn [existsb] in Hf. apply orb_false_elim in Hf. destruct Hf as [_ Hf].
  repeat (apply orb_false_elim in Hf; destruct Hf as [? Hf]).
  unfold flag_to_seq.
  repeat match goal with |- context [if String.eqb f ?s then _ else _] => destruct (String.eqb f s); [reflexivity|] end.
  rewrite String.eqb_sym. assumption.
Qed.

Lemma fold_sadd_map_mem flags : forall acc y,
  smem y (fold_left (fun a f => sadd (flag_to_seq f) a) flags acc) = smem y (map flag_to_seq flags) || smem y acc.
Proof.
  induction flags as [|f fl IH]; intros acc y; cbn [fold_left map]; [reflexivity|].
  rewrite IH, smem_sadd. cbn [smem existsb]. fold (smem y (map flag_to_seq fl)). rewrite (String.eqb_sym y (flag_to_seq f)).
  destruct (String.eqb (flag_to_seq f) y), (smem y (map flag_to_seq fl)), (smem y acc); reflexivity.
Qed.

Lemma seqs_of_flags_cpl flags : existsb reserved_kw flags = false -> cpl (seqs_of_flags flags).
Proof.
  intros H. pose proof (no_unseen_seq flags H) as Hu. unfold seqs_of_flags, cpl.
  set (s0 := fold_left (fun a f => sadd (flag_to_seq f) a) flags []).
  assert (Hs : smem "unseen" s0 = false) by (unfold s0; rewrite fold_sadd_map_mem, Hu; reflexivity).
  destruct (smem "Seen" s0) eqn:E; [rewrite E, Hs; reflexivity|]. rewrite !smem_sadd, E, Hs. reflexivity.
Qed.

Lemma store_mP act flags m :
  existsb reserved_kw flags = false -> mP m -> mP (apply_store act (map flag_to_seq flags) m).
Proof. intros H Hm. apply store_keeps_complement; [apply no_unseen_seq; exact H|exact Hm]. Qed.

Lemma fetch_touch_mP k m : mP m -> mP (fetch_touch k m).
Proof.
  assert (Hb : forall q, cpl q -> cpl (if smem "unseen" q then sadd "Seen" (srem "unseen" q) else q)).
  { unfold cpl. intros q H. destruct (smem "unseen" q) eqn:E; [|rewrite H, E; reflexivity].
    rewrite !smem_sadd, !smem_srem. cbn. reflexivity. }
  unfold mP. destruct k; cbn [fetch_touch m_seqs]; intros H;
    [apply cpl_srem|exact H|apply Hb|apply Hb, cpl_srem]; trivial.
Qed.

Lemma bP_closed : closed (fun _ => bP).
Proof.
  split; intros n.
  - exact resync_bP.
  - exact flush_bP.
  - intros b d sl show. apply dispatch_bP.
  - exact expunge_bP.
  - intros b s f _. apply upd_bP.
  - intros b s. apply setc_bP.
  - intros b s c _. apply setc_bP.
  - intros b. apply setc_bP.
  - intros b k unseen cid0 date H. apply with_disk_bP; [exact H|].
    apply Forall_forall. intros x Hx. apply in_map_iff in Hx. destruct Hx as [i [<- _]].
    unfold mP. cbn [m_seqs]. destruct unseen; reflexivity.
  - intros b flags date cid Hr H. apply with_disk_bP; [exact H|]. constructor; [|constructor].
    unfold mP. cbn [m_seqs]. apply seqs_of_flags_cpl, Hr.
  - intros b n' src sl Hs H. apply with_disk_bP; [exact H|apply msgs_at_Forall, Hs].
  - intros b act flags sl Hr H. apply set_msgs_bP; [|exact H]. apply map_at_Forall; [|apply H].
    intros m. apply store_mP, Hr.
  - intros b k sl H. apply set_msgs_bP; [|exact H]. apply map_at_Forall; [|apply H]. apply fetch_touch_mP.
  - intros w b H. apply maybe_pack_bP, resync_bP, H.
Qed.

Lemma bP_new (n : string) vv : bP (new_box vv).
Proof. split; constructor. Qed.

Theorem reachable_wP a b c ops : wP (fst (run (init_world a b c) ops)).
Proof. exact (reachable_wall _ bP_closed bP_new a b c ops). Qed.
