(* C20.  Dot-stuffing and framing are about the generated dot_stuff (Gen/DotStuff.v); the session
   machine is that of Model/Pop3M.v under interleaved IMAP events.
   The session proof: [sinv] ties an open session to the INBOX of the moment; [moves s s'] keeps sinv and lets
   the size cache only grow; every event but EOpen satisfies [step_ok]: the session moves and the rows of the
   reply lie in the new cache (sizes) and in the snapshot (UIDs).  Hence all rows of a run lie in the one cache
   F the session ends with (run_rows), and rows that lie in one F agree (rows_in_stable). *)
From Asimap Require Import Base.Res Base.Bytes Gen.DotStuff Spec.Pop3Spec Model.Pop3M.
(* the bare end_multiline is Pop3M's (imported last); Gen.DotStuff's returns a res and is written qualified *)
From Coq Require Import ZifyBool.
Open Scope Z_scope.
Open Scope list_scope.

(* [lines] and [bytes_join crlf] of Pop3Spec, unfolded so that the equations of split2 rewrite *)
Notation sp := (split2 13 10).
Notation jn := (bytes_join [13; 10]).

(* split2 calls itself on the tail and on the tail of the tail; this is the induction that
   follows its equations *)
Lemma sp_ind (P : list Z -> list (list Z) -> Prop) :
  P [] [[]] -> (forall x, P [x] [[x]]) ->
  (forall l, P l (sp l) -> P (13 :: 10 :: l) ([] :: sp l)) ->
  (forall x y l h t, (x =? 13) && (y =? 10) = false -> sp (y :: l) = h :: t ->
     P (y :: l) (h :: t) -> P (x :: y :: l) ((x :: h) :: t)) ->
  forall l, P l (sp l).
Proof.
  intros H0 H1 H2 H3.
  assert (forall l, P l (sp l) /\ forall x, P (x :: l) (sp (x :: l))) as H; [|intros l; apply H].
  induction l as [|y l [IHa IHb]]; split; auto.
  intros x. rewrite split2_cons2. destruct ((x =? 13) && (y =? 10)) eqn:E.
  - assert (x = 13 /\ y = 10) as [-> ->] by lia. apply H2, IHa.
  - specialize (IHb y). destruct (sp (y :: l)) as [|h t] eqn:El; [destruct (split2_nonempty _ _ _ El)|].
    apply H3; assumption.
Qed.

Lemma sp_app_crlf X Y : sp (X ++ 13 :: 10 :: Y) = sp X ++ sp Y.
Proof.
  apply (sp_ind (fun X ls => sp (X ++ 13 :: 10 :: Y) = ls ++ sp Y)).
  - reflexivity.
  - intros x. cbn [app]. rewrite split2_cons2, andb_false_r. reflexivity.
  - intros l IH. cbn [app]. rewrite split2_cons2, IH. reflexivity.
  - intros x y l h t E _ IH. cbn [app] in *. rewrite split2_cons2, E, IH. reflexivity.
Qed.

Lemma jn_cons l ls : ls <> [] -> jn (l :: ls) = l ++ 13 :: 10 :: jn ls.
Proof. destruct ls; [contradiction|reflexivity]. Qed.

Lemma jn_sp d : jn (sp d) = d.
Proof.
  apply (sp_ind (fun d ls => jn ls = d)); try reflexivity.
  - intros l IH. rewrite jn_cons, IH by apply split2_nonempty. reflexivity.
  - intros x y l h t _ _ IH. rewrite <- IH. destruct t; reflexivity.
Qed.

Lemma sp_head {y l h t} : sp (y :: l) = h :: t -> h = [] \/ exists h', h = y :: h'.
Proof.
  destruct l as [|z l].
  - cbn. intros H; inversion H; right; eexists; reflexivity.
  - rewrite split2_cons2. destruct ((y =? 13) && (z =? 10)).
    + intros H; inversion H; left; reflexivity.
    + destruct (sp (z :: l)); intros H; inversion H; right; eexists; reflexivity.
Qed.

(* "l holds no CRLF" is written sp l = [l] *)
Lemma sp_single_cons x l : sp l = [l] -> (x =? 13) && (hd 0 l =? 10) = false -> sp (x :: l) = [x :: l].
Proof.
  destruct l as [|y l]; [reflexivity|]. cbn [hd]. intros H E. rewrite split2_cons2, E, H. reflexivity.
Qed.

Lemma sp_all_single d : Forall (fun l => sp l = [l]) (sp d).
Proof.
  apply (sp_ind (fun _ ls => Forall (fun l => sp l = [l]) ls)).
  - repeat constructor.
  - repeat constructor.
  - intros l IH. constructor; [reflexivity|exact IH].
  - intros x y l h t E El IH. inversion IH as [|? ? Hh Ht]; subst. constructor; [|exact Ht].
    destruct (sp_head El) as [->|[h' ->]]; [reflexivity|]. apply sp_single_cons; assumption.
Qed.

Lemma sp_jn ls : ls <> [] -> Forall (fun l => sp l = [l]) ls -> sp (jn ls) = ls.
Proof.
  induction ls as [|l [|l2 r] IH]; intros Hne H; [contradiction| |];
    inversion H as [|? ? Hl Hr]; subst; [exact Hl|].
  rewrite jn_cons, sp_app_crlf, Hl, IH by (assumption || discriminate). reflexivity.
Qed.

Lemma jn_snoc_nil ls : ls <> [] -> jn (ls ++ [[]]) = jn ls ++ [13; 10].
Proof.
  induction ls as [|l [|l2 r] IH]; intros Hne; [contradiction| |].
  - reflexivity.
  - cbn [app] in *. rewrite (jn_cons l (l2 :: r)), <- app_assoc by discriminate.
    cbn [app]. rewrite <- IH by discriminate. apply jn_cons. discriminate.
Qed.

Lemma map_sp_ne (f : list Z -> list Z) d : map f (sp d) <> [].
Proof. intros H. apply map_eq_nil in H. exact (split2_nonempty _ _ _ H). Qed.

Lemma map_sp_app_crlf (f : list Z -> list Z) d :
  f [] = [] -> jn (map f (sp (d ++ [13; 10]))) = jn (map f (sp d)) ++ [13; 10].
Proof.
  intros Hf. rewrite (sp_app_crlf d []), map_app. cbn [split2 map]. rewrite Hf. apply jn_snoc_nil, map_sp_ne.
Qed.

Definition stuff_line (l : list Z) : list Z := if bytes_startswith l [46] then 46 :: l else l.
Definition stuff (d : list Z) : list Z := jn (map stuff_line (sp d)).

Lemma for_each_stuff data lines ls acc :
  for_each (dot_stuff_body1 data lines) acc ls = Ok (acc ++ map stuff_line ls).
Proof.
  revert acc; induction ls as [|a ls IH]; intros acc; cbn [for_each map].
  - rewrite app_nil_r; reflexivity.
  - unfold dot_stuff_body1 at 1. unfold stuff_line at 1.
    destruct (bytes_startswith a [46]); rewrite IH, <- app_assoc; reflexivity.
Qed.

Lemma dot_stuff_is_stuff d : dot_stuff d = Ok (stuff d).
Proof.
  unfold dot_stuff. change (bytes_split d [13; 10]) with (sp d).
  rewrite for_each_stuff. reflexivity.
Qed.

Lemma stuff_line_cons x l : stuff_line (x :: l) = if x =? 46 then 46 :: x :: l else x :: l.
Proof. unfold stuff_line. cbn [bytes_startswith]. rewrite Z.eqb_sym. destruct l; rewrite andb_true_r; reflexivity. Qed.

Lemma unstuff_stuff_line l : unstuff_line (stuff_line l) = l.
Proof.
  destruct l as [|x l]; [reflexivity|]. rewrite stuff_line_cons.
  destruct (x =? 46) eqn:E; cbn [unstuff_line]; [|rewrite E]; reflexivity.
Qed.

Lemma stuff_line_not_dot l : is_dot (stuff_line l) = false.
Proof.
  destruct l as [|x l]; [reflexivity|]. rewrite stuff_line_cons.
  destruct (x =? 46) eqn:E; [reflexivity|]. destruct l; [exact E|reflexivity].
Qed.

Lemma stuff_line_single l : sp l = [l] -> sp (stuff_line l) = [stuff_line l].
Proof.
  intros H. unfold stuff_line. destruct (bytes_startswith l [46]); [|exact H].
  apply sp_single_cons; [exact H|reflexivity].
Qed.

Lemma lines_stuff d : lines (stuff d) = map stuff_line (lines d).
Proof.
  unfold lines, stuff. apply sp_jn.
  - apply map_sp_ne.
  - apply Forall_map. eapply Forall_impl; [exact stuff_line_single|apply sp_all_single].
Qed.

Lemma unstuff_stuff d : unstuff (stuff d) = d.
Proof.
  unfold unstuff. rewrite lines_stuff, map_map.
  rewrite (map_ext _ (fun l => l) unstuff_stuff_line), map_id. apply jn_sp.
Qed.

Lemma stuff_no_lone_dot d : Forall (fun l => is_dot l = false) (lines (stuff d)).
Proof.
  rewrite lines_stuff. apply Forall_map, Forall_forall. intros l _. apply stuff_line_not_dot.
Qed.

Lemma collect_stuffed ls : collect (map stuff_line ls ++ [[46]; []]) = Some (jn (ls ++ [[]])).
Proof.
  induction ls as [|a ls IH]; [reflexivity|].
  cbn [map app collect]. rewrite stuff_line_not_dot, IH, unstuff_stuff_line, jn_cons; [reflexivity|].
  destruct ls; discriminate.
Qed.

Lemma receive_stuffed d : receive (stuff d ++ 13 :: 10 :: [46; 13; 10]) = Some (d ++ [13; 10]).
Proof.
  unfold receive, lines. rewrite sp_app_crlf. fold (lines (stuff d)). rewrite lines_stuff.
  change (sp [46; 13; 10]) with [[46]; []].
  rewrite collect_stuffed, jn_snoc_nil, jn_sp by apply split2_nonempty. reflexivity.
Qed.

Lemma ends_crlf_app p x y : ends_crlf (p ++ [x; y]) = (x =? 13) && (y =? 10).
Proof.
  induction p as [|a [|b p] IH]; [reflexivity|exact IH|].
  rewrite <- IH. cbn [app ends_crlf]. destruct p; reflexivity.
Qed.

Lemma ends_crlf_inv l : ends_crlf l = true -> exists p, l = p ++ [13; 10].
Proof.
  induction l as [|x [|y [|z l]] IH]; try discriminate.
  - cbn. intros H. assert (x = 13 /\ y = 10) as [-> ->] by lia. exists []; reflexivity.
  - intros H. destruct (IH H) as [p Hp]. exists (x :: p). rewrite Hp. reflexivity.
Qed.

Lemma stuff_app_crlf d : stuff (d ++ [13; 10]) = stuff d ++ [13; 10].
Proof. apply (map_sp_app_crlf stuff_line). reflexivity. Qed.

Lemma unstuff_app_crlf p : unstuff (p ++ [13; 10]) = unstuff p ++ [13; 10].
Proof. apply (map_sp_app_crlf unstuff_line). reflexivity. Qed.

(* one direction from stuff_app_crlf, the other by un-stuffing a payload that ends in CRLF *)
Lemma ends_crlf_stuff d : ends_crlf (stuff d) = ends_crlf d.
Proof.
  destruct (ends_crlf d) eqn:Ed.
  - destruct (ends_crlf_inv _ Ed) as [p ->]. rewrite stuff_app_crlf. apply ends_crlf_app.
  - destruct (ends_crlf (stuff d)) eqn:Es; [|reflexivity].
    destruct (ends_crlf_inv _ Es) as [p Hp].
    pose proof (unstuff_stuff d) as Hu. rewrite Hp, unstuff_app_crlf in Hu.
    rewrite <- Hu, ends_crlf_app in Ed. discriminate.
Qed.

Lemma is_nil_stuff d : is_nil (stuff d) = is_nil d.
Proof.
  destruct d as [|x d]; [reflexivity|].
  destruct (stuff (x :: d)) eqn:Es; [|reflexivity].
  pose proof (unstuff_stuff (x :: d)) as Hu. rewrite Es in Hu. discriminate Hu.
Qed.

Definition norm (d : list Z) : list Z :=
  if negb (is_nil d) && negb (ends_crlf d) then d ++ crlf else d.

Lemma frame_receive d : receive (Pop3M.end_multiline (stuff d)) = Some (norm d).
Proof.
  unfold Pop3M.end_multiline, norm. rewrite is_nil_stuff, ends_crlf_stuff.
  destruct d as [|x d]; [reflexivity|]. cbn [is_nil negb andb].
  destruct (ends_crlf (x :: d)) eqn:Ed; cbn [negb].
  - destruct (ends_crlf_inv _ Ed) as [q ->]. rewrite stuff_app_crlf, <- app_assoc.
    apply receive_stuffed.
  - unfold crlf. rewrite <- app_assoc. apply receive_stuffed.
Qed.

Lemma ends_crlf_ensure b : ends_crlf (ensure_crlf b) = true.
Proof. unfold ensure_crlf. destruct (ends_crlf b) eqn:E; [exact E|apply ends_crlf_app]. Qed.

Lemma norm_ensure b : norm (ensure_crlf b) = ensure_crlf b.
Proof. unfold norm. rewrite ends_crlf_ensure, andb_false_r. reflexivity. Qed.

Theorem stuffing : forall d,
  exists p, dot_stuff d = Ok p /\
    Forall (fun l => is_dot l = false) (lines p) /\
    unstuff p = d /\
    receive (end_multiline p) = Some (if negb (is_nil d) && negb (ends_crlf d) then d ++ crlf else d).
Proof.
  intros d. exists (stuff d). split; [apply dot_stuff_is_stuff|].
  split; [apply stuff_no_lone_dot|]. split; [apply unstuff_stuff|apply frame_receive].
Qed.

Lemma dot_stuff_total d : exists p, dot_stuff d = Ok p.
Proof. eexists; apply dot_stuff_is_stuff. Qed.

Definition content_of (u : Z) (box : list msg) : option content := option_map m_c (find_uid u box).

Lemma content_of_app u box m : m_uid m <> u -> content_of u (box ++ [m]) = content_of u box.
Proof.
  intros Hm. unfold content_of, find_uid. induction box as [|a box IH]; cbn [app find].
  - destruct (m_uid m =? u) eqn:E; [lia|reflexivity].
  - destruct (m_uid a =? u); [reflexivity|exact IH].
Qed.

Lemma content_of_drop u us box :
  content_of u (drop_uids us box) = if memz u us then None else content_of u box.
Proof.
  unfold content_of, find_uid, drop_uids. induction box as [|a box IH]; cbn [filter find].
  - destruct (memz u us); reflexivity.
  - destruct (m_uid a =? u) eqn:E.
    + assert (m_uid a = u) as Ea by lia. rewrite Ea.
      destruct (memz u us) eqn:Em; cbn [negb find]; [exact IH|rewrite E; reflexivity].
    + destruct (negb (memz (m_uid a) us)); [cbn [find]; rewrite E|]; exact IH.
Qed.

Lemma content_of_renum u k box : content_of u (renum k box) = content_of u box.
Proof.
  unfold content_of, find_uid. revert k; induction box as [|a box IH]; intros k; cbn [renum find]; [reflexivity|].
  cbn [m_uid]. destruct (m_uid a =? u); [reflexivity|apply IH].
Qed.

Lemma uids_renum k box : map m_uid (renum k box) = map m_uid box.
Proof. revert k; induction box as [|a box IH]; intros k; cbn [renum map]; [reflexivity|]. rewrite IH; reflexivity. Qed.

Lemma drop_uids_nil box : drop_uids [] box = box.
Proof. unfold drop_uids. induction box as [|a box IH]; [reflexivity|]. cbn [filter]. rewrite IH; reflexivity. Qed.

Lemma Forall_drop (P : msg -> Prop) us box : Forall P box -> Forall P (drop_uids us box).
Proof. apply incl_Forall, incl_filter. Qed.

Definition cache (s : sess) (n : Z) : option Z := assoc n (s_sizes s).

Definition below (F G : Z -> option Z) : Prop := forall n z, F n = Some z -> G n = Some z.

Lemma below_refl F : below F F.
Proof. intros n z H; exact H. Qed.

Lemma below_trans {F G H} : below F G -> below G H -> below F H.
Proof. intros A B n z E. apply B, A, E. Qed.

Definition rows_in (F : Z -> option Z) (uids : list Z) (r : reply) : Prop :=
  (forall n z, In (n, z) (size_rows r) -> F n = Some z) /\
  (forall n u, In (n, u) (uid_rows r) -> 1 <= n /\ nth_error uids (idx n) = Some u).

Lemma rows_in_none F uids r : size_rows r = [] -> uid_rows r = [] -> rows_in F uids r.
Proof. intros H1 H2; split; intros ? ? H; [rewrite H1 in H|rewrite H2 in H]; destruct H. Qed.

Lemma rows_in_below {F G uids r} : rows_in F uids r -> below F G -> rows_in G uids r.
Proof. intros [A B] H. split; [intros n z Hin; apply H, A, Hin|exact B]. Qed.

(* C20_snapshot is this, for the replies of a run *)
Lemma rows_in_stable {F uids rs} : Forall (rows_in F uids) rs -> uidl_fixed uids rs /\ sizes_stable rs.
Proof.
  intros H. pose proof (proj1 (Forall_forall _ _) H) as Hr. split.
  - intros r n u Hin. apply (Hr r Hin).
  - intros r1 r2 n a b H1 H2 Ha Hb.
    apply (Hr r1 H1) in Ha. apply (Hr r2 H2) in Hb. congruence.
Qed.

(* INBOX enters only through i_cache: a cached size is the size of the message as long as
   the message is there.  That is enough because a snapshot UID, once gone from INBOX, never
   comes back (i_lt: new messages get UIDs from nu upwards), so nothing need be remembered
   of the INBOX the session began with. *)
Record sinv (uids0 : list Z) (box : list msg) (nu : Z) (s : sess) : Prop := {
  i_uids : s_uids s = uids0;
  i_keys : List.length (s_keys s) = List.length (s_uids s);
  i_lt : Forall (fun u => u < nu) (s_uids s);
  i_cache : forall n z u c, cache s n = Some z -> nth_error (s_uids s) (idx n) = Some u ->
            content_of u box = Some c -> z = msize c;
  i_del : forall n, In n (s_del s) -> 1 <= n <= count s
}.
Arguments i_uids {uids0 box nu s}.
Arguments i_keys {uids0 box nu s}.
Arguments i_cache {uids0 box nu s}.
Arguments i_del {uids0 box nu s}.

Lemma sinv_shrink {uids0 box box' nu nu' s} :
  sinv uids0 box nu s -> nu <= nu' ->
  (forall u, u < nu -> content_of u box' = None \/ content_of u box' = content_of u box) ->
  sinv uids0 box' nu' s.
Proof.
  intros [H1 H2 H3 H4 H5] Hnu Hsub. constructor; auto.
  - eapply Forall_impl; [|exact H3]. cbn; intros; lia.
  - intros n z u c Hz Hu Hc. apply (H4 n z u c Hz Hu).
    destruct (Hsub u) as [E|E]; [|congruence..].
    apply (proj1 (Forall_forall _ _) H3). eapply nth_error_In; exact Hu.
Qed.

Lemma open_sinv w : wf w -> sinv (map m_uid (inbox w)) (inbox w) (next_uid w) (open_sess (inbox w)).
Proof.
  intros Hw. constructor; cbn [open_sess s_uids s_keys s_del].
  - reflexivity.
  - rewrite !map_length; reflexivity.
  - apply Forall_map. exact Hw.
  - discriminate.
  - intros ? [].
Qed.

Lemma nth_uid {uids0 box nu s n} : sinv uids0 box nu s -> 1 <= n <= count s ->
  1 <= n /\ nth_error uids0 (idx n) = Some (uid_of s n).
Proof.
  intros Hi Hn. split; [lia|]. rewrite <- (i_uids Hi). unfold uid_of. apply nth_error_nth'.
  rewrite <- (i_keys Hi). unfold count, idx in *. lia.
Qed.

Lemma valid_num_range {s a n} : valid_num s a = Some n -> 1 <= n <= count s.
Proof.
  unfold valid_num. destruct a as [m|]; [|discriminate].
  destruct ((m <? 1) || (count s <? m)) eqn:E; [discriminate|].
  destruct (memz m (s_del s)); [discriminate|]. intros H; inversion H; subst. lia.
Qed.

Lemma resolve_uid box s n m : resolve true box s n = Some m ->
  exists u, nth_error (s_uids s) (idx n) = Some u /\ find_uid u box = Some m.
Proof. unfold resolve. destruct (nth_error (s_uids s) (idx n)) as [u|]; [eauto|discriminate]. Qed.

(* the session goes on: sinv is kept and no cached size is lost or changed *)
Record moves (uids0 : list Z) (box : list msg) (nu : Z) (s s' : sess) : Prop := {
  mv_inv : sinv uids0 box nu s';
  mv_cache : below (cache s) (cache s')
}.
Arguments mv_inv {uids0 box nu s s'}.
Arguments mv_cache {uids0 box nu s s'}.

Lemma moves_refl uids0 box nu s : sinv uids0 box nu s -> moves uids0 box nu s s.
Proof. intros Hi. constructor; [exact Hi|apply below_refl]. Qed.

Lemma moves_trans {uids0 box nu s s1 s2} :
  moves uids0 box nu s s1 -> moves uids0 box nu s1 s2 -> moves uids0 box nu s s2.
Proof. intros [A B] [A' B']. constructor; [exact A'|exact (below_trans B B')]. Qed.

Lemma set_del_moves uids0 box nu s d :
  sinv uids0 box nu s -> (forall n, In n d -> 1 <= n <= count s) -> moves uids0 box nu s (set_del s d).
Proof.
  intros [H1 H2 H3 H4 H5] Hd.
  constructor; [constructor; cbn [set_del s_uids s_keys s_del]; auto|apply below_refl].
Qed.

Lemma set_size_moves {uids0 box nu s} n z :
  sinv uids0 box nu s ->
  (forall u c, nth_error (s_uids s) (idx n) = Some u -> content_of u box = Some c -> z = msize c) ->
  (forall z0, cache s n = Some z0 -> z0 = z) ->
  moves uids0 box nu s (set_size s n z) /\ cache (set_size s n z) n = Some z.
Proof.
  intros [H1 H2 H3 H4 H5] Hz Hsame.
  assert (forall n0, cache (set_size s n z) n0 = if n0 =? n then Some z else cache s n0) as Hc by reflexivity.
  split; [constructor; [constructor; cbn [set_size s_uids s_keys s_del]; auto|]|].
  - intros n0 z0 u c. rewrite Hc. destruct (Z.eqb_spec n0 n) as [->|_]; [|apply H4].
    intros Ez; inversion Ez; subst z0. apply Hz.
  - intros n0 z0 H. rewrite Hc. destruct (Z.eqb_spec n0 n) as [->|_]; [|exact H].
    rewrite (Hsame _ H). reflexivity.
  - rewrite Hc, Z.eqb_refl. reflexivity.
Qed.

(* _get_msg_size asks INBOX only for a number it has no size for *)
Lemma get_size_moves {uids0 box nu s n z s'} :
  sinv uids0 box nu s -> get_size true box s n = (z, s') ->
  moves uids0 box nu s s' /\ cache s' n = Some z.
Proof.
  intros Hi. unfold get_size. fold (cache s n). destruct (cache s n) as [z0|] eqn:Ea; intros H; inversion H; subst.
  - split; [apply moves_refl; exact Hi|exact Ea].
  - apply set_size_moves; [exact Hi| |congruence].
    intros u c Hu Hc. unfold content_of in Hc. unfold resolve. rewrite Hu.
    destruct (find_uid u box); inversion Hc; reflexivity.
Qed.

Definition sum_sizes (rows : list (Z * Z)) : Z := fold_right (fun r a => snd r + a) 0 rows.

Lemma get_size_del b box s n : s_del (snd (get_size b box s n)) = s_del s.
Proof. unfold get_size. destruct (assoc n (s_sizes s)); reflexivity. Qed.

Lemma scan_loop_rows {b box} nums : forall {c t rows s c' t' rows' s'},
  fold_left (scan_body b box) nums (c, t, rows, s) = (c', t', rows', s') ->
  exists new, rows' = rows ++ new /\
    map fst new = filter (fun n => negb (memz n (s_del s))) nums /\
    c' = c + Z.of_nat (List.length new) /\ t' = t + sum_sizes new.
Proof.
  induction nums as [|num nums IH]; intros c t rows s c' t' rows' s' H; cbn [fold_left] in H.
  - injection H as <- <- <- <-. exists []. rewrite app_nil_r. cbn. repeat split; lia.
  - unfold scan_body at 2 in H. cbn [filter]. destruct (memz num (s_del s)); [eapply IH, H|].
    pose proof (get_size_del b box s num) as Hd. destruct (get_size b box s num) as [z s1].
    apply IH in H. destruct H as [new [-> [F [-> ->]]]]. cbn [snd] in Hd. rewrite Hd in F.
    exists ((num, z) :: new). rewrite <- app_assoc. split; [reflexivity|].
    cbn [negb map fst List.length sum_sizes fold_right snd]. fold (sum_sizes new). rewrite F. repeat split; lia.
Qed.

Lemma scan_rows {b box s cnt tot rows s'} : scan b box s = (cnt, tot, rows, s') ->
  map fst rows = filter (fun n => negb (memz n (s_del s))) (py_range 1 (count s + 1)) /\
  cnt = Z.of_nat (List.length rows) /\ tot = sum_sizes rows.
Proof. intros Es. apply scan_loop_rows in Es. destruct Es as [new [-> [F [-> ->]]]]. auto. Qed.

Lemma fold_left_inv {A B} (P : A -> Prop) (f : A -> B -> A) l :
  forall a, P a -> (forall a x, P a -> P (f a x)) -> P (fold_left f l a).
Proof. induction l as [|x l IH]; intros a Ha Hf; [exact Ha|]. apply IH; [apply Hf, Ha|exact Hf]. Qed.

Lemma scan_del b box s : s_del (snd (scan b box s)) = s_del s.
Proof.
  unfold scan. apply (fold_left_inv (fun st => s_del (snd st) = s_del s)); [reflexivity|].
  intros [[[c t] rows] s1] num H. unfold scan_body. destruct (memz num (s_del s1)); [exact H|].
  pose proof (get_size_del b box s1 num) as Hd. destruct (get_size b box s1 num) as [z s2].
  exact (eq_trans Hd H).
Qed.

Lemma scan_moves {uids0 box nu s cnt tot rows s'} :
  sinv uids0 box nu s -> scan true box s = (cnt, tot, rows, s') ->
  moves uids0 box nu s s' /\ forall n z, In (n, z) rows -> cache s' n = Some z.
Proof.
  intros Hi Es.
  pose (P := fun st : Z * Z * list (Z * Z) * sess => let '(_, _, rows, s') := st in
    moves uids0 box nu s s' /\ forall n z, In (n, z) rows -> cache s' n = Some z).
  change (P (cnt, tot, rows, s')). rewrite <- Es. unfold scan. apply fold_left_inv; unfold P.
  - split; [apply moves_refl; exact Hi|intros ? ? []].
  - intros [[[c t] rows1] s1] num [M C]. unfold scan_body. destruct (memz num (s_del s1)); [split; assumption|].
    destruct (get_size true box s1 num) as [z s2] eqn:Eg.
    destruct (get_size_moves (mv_inv M) Eg) as [M1 C1].
    split; [exact (moves_trans M M1)|].
    intros n z0 Hin. apply in_app_or in Hin. destruct Hin as [Hin|[Hin|[]]].
    + apply (mv_cache M1), C, Hin.
    + inversion Hin; subst. exact C1.
Qed.

(* an event either moves the session and answers from its cache and snapshot, or ends it and shows no row *)
Definition step_ok (uids0 : list Z) (s : sess) (e : ev) (w' : world) (r : reply) : Prop :=
  if in_session e
  then exists s', psess w' = Some s' /\
         moves uids0 (inbox w') (next_uid w') s s' /\ s_del s' = mark_step (s_del s) (e, r) /\
         rows_in (cache s') uids0 r
  else psess w' = None /\ size_rows r = [] /\ uid_rows r = [].

Lemma step_ok_sizes uids0 s e w' s' r :
  in_session e = true -> psess w' = Some s' ->
  moves uids0 (inbox w') (next_uid w') s s' -> s_del s' = mark_step (s_del s) (e, r) ->
  (forall n z, In (n, z) (size_rows r) -> cache s' n = Some z) -> uid_rows r = [] ->
  step_ok uids0 s e w' r.
Proof.
  intros He Hs M Hd H1 H2. unfold step_ok. rewrite He. exists s'. split; [exact Hs|]. split; [exact M|]. split; [exact Hd|].
  split; [exact H1|rewrite H2; intros ? ? []].
Qed.

Lemma step_ok_uids uids0 s e w' r :
  sinv uids0 (inbox w') (next_uid w') s -> in_session e = true -> psess w' = Some s ->
  mark_step (s_del s) (e, r) = s_del s -> size_rows r = [] ->
  (forall n u, In (n, u) (uid_rows r) -> u = uid_of s n /\ 1 <= n <= count s) ->
  step_ok uids0 s e w' r.
Proof.
  intros Hi He Hs Hm H1 H2. unfold step_ok. rewrite He, Hm. exists s. split; [exact Hs|].
  split; [apply moves_refl; exact Hi|]. split; [reflexivity|]. split; [rewrite H1; intros ? ? []|].
  intros n u Hin. destruct (H2 n u Hin) as [-> Hn]. exact (nth_uid Hi Hn).
Qed.

Lemma step_ok_same uids0 s e w' r :
  sinv uids0 (inbox w') (next_uid w') s -> in_session e = true -> psess w' = Some s ->
  mark_step (s_del s) (e, r) = s_del s -> size_rows r = [] -> uid_rows r = [] ->
  step_ok uids0 s e w' r.
Proof. intros Hi He Hs Hm H1 H2. apply step_ok_uids; try assumption. rewrite H2. intros ? ? []. Qed.

(* for what every leaf of pop_step shows on its face: split on each scrutinee in turn *)
Ltac crunch_goal :=
  repeat match goal with |- context [match ?x with _ => _ end] => destruct x end.

Lemma step_pop {b w s} c : psess w = Some s ->
  step b w (EPop c) =
  let p := pop_step b (inbox w) s c in
  ({| inbox := snd (fst p); next_uid := next_uid w; psess := fst (fst p) |}, snd p).
Proof. intros Hs. cbn [step]. rewrite Hs. destruct (pop_step b (inbox w) s c) as [[os box] r]. reflexivity. Qed.

Lemma pop_step_ok {uids0 box nu s} c :
  sinv uids0 box nu s ->
  let p := pop_step true box s c in
  step_ok uids0 s (EPop c) {| inbox := snd (fst p); next_uid := nu; psess := fst (fst p) |} (snd p).
Proof.
  intros Hi. destruct c; cbn [pop_step].
  - (* STAT *)
    pose proof (scan_del true box s) as Hd. destruct (scan true box s) as [[[cnt tot] rows] s'] eqn:Es.
    apply step_ok_sizes with s'; [reflexivity..|exact (proj1 (scan_moves Hi Es))|exact Hd|intros ? ? []|reflexivity].
  - (* LIST *)
    destruct a as [a|].
    + destruct (valid_num s a) as [n|]; [|now apply step_ok_same].
      pose proof (get_size_del true box s n) as Hd.
      destruct (get_size true box s n) as [z s'] eqn:Eg. destruct (get_size_moves Hi Eg) as [M C].
      apply step_ok_sizes with s'; [reflexivity..|exact M|exact Hd| |reflexivity].
      intros n0 z0 [Hin|[]]. inversion Hin; subst. exact C.
    + pose proof (scan_del true box s) as Hd.
      destruct (scan true box s) as [[[cnt tot] rows] s'] eqn:Es. destruct (scan_moves Hi Es) as [M C].
      apply step_ok_sizes with s'; [reflexivity..|exact M|exact Hd|exact C|reflexivity].
  - (* UIDL *)
    destruct a as [a|].
    + destruct (valid_num s a) as [n|] eqn:Ev; [|now apply step_ok_same].
      apply step_ok_uids; [exact Hi|reflexivity..|]. intros n0 u [Hin|[]]. inversion Hin; subst.
      split; [reflexivity|exact (valid_num_range Ev)].
    + apply step_ok_uids; [exact Hi|reflexivity..|]. intros n u Hin.
      apply in_map_iff in Hin. destruct Hin as [n1 [Heq Hin]]. inversion Heq; subst.
      apply filter_In, proj1, in_py_range in Hin. split; [reflexivity|lia].
  - (* RETR: the announced size enters the cache, which cannot have held another one *)
    destruct (valid_num s a) as [n|]; [|now apply step_ok_same].
    destruct (resolve true box s n) as [m|] eqn:Er; [|now apply step_ok_same].
    apply resolve_uid in Er. destruct Er as [u [Hu Hm]].
    assert (content_of u box = Some (m_c m)) as Hc by (unfold content_of; rewrite Hm; reflexivity).
    destruct (set_size_moves n (msize (m_c m)) Hi) as [M C].
    { intros u' c Hu' Hc'. congruence. }
    { intros z0 Hz0. exact (i_cache Hi n z0 u _ Hz0 Hu Hc). }
    rewrite dot_stuff_is_stuff. apply step_ok_sizes with (set_size s n (msize (m_c m))); [reflexivity..|exact M|reflexivity| |reflexivity].
    intros n0 z0 [Hin|[]]. inversion Hin; subst. exact C.
  - (* DELE *)
    destruct (valid_num s a) as [n|] eqn:Ev; [|now apply step_ok_same].
    apply step_ok_sizes with (set_del s (n :: s_del s)); [reflexivity..| |reflexivity|intros ? ? []|reflexivity].
    apply set_del_moves; [exact Hi|].
    intros n0 [<-|Hin]; [exact (valid_num_range Ev)|apply (i_del Hi), Hin].
  - (* TOP answers from INBOX and leaves the session as it is *)
    crunch_goal; now apply step_ok_same.
  - now apply step_ok_same.
  - (* RSET *)
    apply step_ok_sizes with (set_del s []); [reflexivity..| |reflexivity|intros ? ? []|reflexivity].
    apply set_del_moves; [exact Hi|intros ? []].
  - (* QUIT *) repeat split.
  - now apply step_ok_same.
  - now apply step_ok_same.
Qed.

Lemma open_step_ok {uids0 w s e} :
  psess w = Some s -> sinv uids0 (inbox w) (next_uid w) s -> not_open e = true ->
  step_ok uids0 s e (fst (step true w e)) (snd (step true w e)).
Proof.
  intros Hs Hi Ho. destruct e; try discriminate.
  - rewrite (step_pop c Hs). exact (pop_step_ok c Hi).
  - (* the connection is dropped *) repeat split.
  - (* append: the new UID is none of the snapshot's *)
    apply step_ok_same; try reflexivity; [|exact Hs]. apply (sinv_shrink Hi); cbn [step fst inbox next_uid]; [lia|].
    intros u Hu. right. apply content_of_app. cbn [m_uid]. lia.
  - (* expunge *)
    apply step_ok_same; try reflexivity; [|exact Hs]. apply (sinv_shrink Hi); [apply Z.le_refl|].
    intros u _. cbn [step fst with_box inbox]. rewrite content_of_drop. destruct (memz u uids); auto.
  - (* pack *)
    apply step_ok_same; try reflexivity; [|exact Hs]. apply (sinv_shrink Hi); [apply Z.le_refl|].
    intros u _. right. apply content_of_renum.
  - (* observe *)
    apply step_ok_same; try reflexivity; [exact Hi|exact Hs].
Qed.

Lemma closed_step_silent w e :
  psess w = None -> not_open e = true ->
  psess (fst (step true w e)) = None /\ size_rows (snd (step true w e)) = [] /\ uid_rows (snd (step true w e)) = [].
Proof. intros Hs Ho. destruct e; try discriminate; cbn [step]; try rewrite Hs; cbn; auto. Qed.

Lemma run_cons b w e l :
  run b w (e :: l) = (fst (run b (fst (step b w e)) l), snd (step b w e) :: snd (run b (fst (step b w e)) l)).
Proof. cbn [run]. destruct (step b w e) as [w1 r]. cbn [fst snd]. destruct (run b w1 l); reflexivity. Qed.

Lemma run_closed F uids : forall l w, psess w = None -> forallb not_open l = true ->
  Forall (rows_in F uids) (snd (run true w l)).
Proof.
  induction l as [|e l IH]; intros w Hs Hl; [constructor|].
  cbn [forallb] in Hl. apply andb_prop in Hl. destruct Hl as [He Hl].
  rewrite run_cons. destruct (closed_step_silent _ _ Hs He) as [A [B C]].
  constructor; [apply rows_in_none; assumption|exact (IH _ A Hl)].
Qed.

(* F is the cache the session has when it ends, or when the run does *)
Lemma run_rows uids0 : forall l w s,
  psess w = Some s -> sinv uids0 (inbox w) (next_uid w) s -> forallb not_open l = true ->
  exists F, below (cache s) F /\ Forall (rows_in F uids0) (snd (run true w l)).
Proof.
  induction l as [|e l IH]; intros w s Hs Hi Hl.
  - exists (cache s). split; [apply below_refl|constructor].
  - cbn [forallb] in Hl. apply andb_prop in Hl. destruct Hl as [He Hl].
    rewrite run_cons. cbn [snd]. pose proof (open_step_ok Hs Hi He) as Hstep. unfold step_ok in Hstep.
    destruct (in_session e).
    + destruct Hstep as [s1 [Hs1 [[Hi1 B] [_ R]]]]. destruct (IH _ _ Hs1 Hi1 Hl) as [F [F1 F2]].
      exists F. split; [exact (below_trans B F1)|].
      constructor; [exact (rows_in_below R F1)|exact F2].
    + destruct Hstep as [Hn [B C]]. exists (cache s). split; [apply below_refl|].
      constructor; [apply rows_in_none; assumption|apply run_closed; assumption].
Qed.

Lemma in_session_not_open e : in_session e = true -> not_open e = true.
Proof. destruct e; cbn; auto. Qed.

Lemma run_marks uids0 : forall l w s,
  psess w = Some s -> sinv uids0 (inbox w) (next_uid w) s -> forallb in_session l = true ->
  exists s1, psess (fst (run true w l)) = Some s1 /\
    sinv uids0 (inbox (fst (run true w l))) (next_uid (fst (run true w l))) s1 /\
    s_del s1 = fold_left mark_step (combine l (snd (run true w l))) (s_del s).
Proof.
  induction l as [|e l IH]; intros w s Hs Hi Hl.
  - exists s. cbn. auto.
  - cbn [forallb] in Hl. apply andb_prop in Hl. destruct Hl as [He Hl].
    rewrite run_cons. cbn [fst snd combine fold_left].
    pose proof (open_step_ok Hs Hi (in_session_not_open _ He)) as Hstep. unfold step_ok in Hstep.
    rewrite He in Hstep. destruct Hstep as [s1 [Hs1 [[Hi1 _] [<- _]]]]. exact (IH _ _ Hs1 Hi1 Hl).
Qed.

Theorem snapshot_stable : forall w l, wf w -> forallb not_open l = true ->
  let w0 := fst (step true w EOpen) in
  let rs := snd (run true w0 l) in
  uidl_fixed (map m_uid (inbox w)) rs /\ sizes_stable rs.
Proof.
  intros w l Hw Hl w0 rs.
  destruct (run_rows _ l w0 _ eq_refl (open_sinv w Hw) Hl) as [F [_ HF]].
  exact (rows_in_stable HF).
Qed.

Lemma uids_at_map {uids0 box nu s} :
  sinv uids0 box nu s -> map (uid_of s) (s_del s) = uids_at uids0 (s_del s).
Proof.
  intros Hi. pose proof (i_del Hi) as Hd. induction (s_del s) as [|n d IH]; [reflexivity|].
  cbn [map uids_at flat_map]. fold (uids_at uids0 d). fold (idx n).
  rewrite (proj2 (nth_uid Hi (Hd n (or_introl eq_refl)))), IH; [reflexivity|].
  intros n0 Hn0; apply Hd; right; exact Hn0.
Qed.

Theorem quit_exact : forall w l, wf w -> forallb in_session l = true ->
  let w0 := fst (step true w EOpen) in
  let w1 := fst (run true w0 l) in
  let rs := snd (run true w0 l) in
  let marked := uids_at (map m_uid (inbox w)) (marks_of (combine l rs)) in
  let w2 := fst (step true w1 (EPop PQuit)) in
  inbox w2 = filter (fun m => negb (memz (m_uid m) marked)) (inbox w1) /\ psess w2 = None.
Proof.
  intros w l Hw Hl w0 w1 rs marked w2.
  destruct (run_marks _ l w0 _ eq_refl (open_sinv w Hw) Hl) as [s1 [A [B D]]].
  fold w1 in A, B. fold rs in D.
  subst w2. cbn [step]. rewrite A. cbn [pop_step fst inbox psess]. split; [|reflexivity].
  rewrite (uids_at_map B), D. reflexivity.
Qed.

Lemma pop_keeps_inbox b box s c : c <> PQuit -> snd (fst (pop_step b box s c)) = box.
Proof. intros Hc. destruct c; try congruence; cbn [pop_step]; crunch_goal; reflexivity. Qed.

Theorem only_quit_removes : forall b w c, c <> PQuit -> inbox (fst (step b w (EPop c))) = inbox w.
Proof.
  intros b w c Hc. destruct (psess w) as [s|] eqn:Hs; [|cbn [step]; rewrite Hs; reflexivity].
  rewrite (step_pop c Hs). apply pop_keeps_inbox, Hc.
Qed.

Theorem drop_keeps : forall b w,
  inbox (fst (step b w EDrop)) = inbox w /\ psess (fst (step b w EDrop)) = None.
Proof. intros; split; reflexivity. Qed.

Theorem rset_then_quit_keeps : forall b w,
  inbox (fst (step b (fst (step b w (EPop PRset))) (EPop PQuit))) = inbox w.
Proof.
  intros b w. cbn [step]. destruct (psess w) as [s|] eqn:Hs.
  - cbn [pop_step fst psess inbox set_del s_del map]. apply drop_uids_nil.
  - cbn [fst]. rewrite Hs. reflexivity.
Qed.

Definition wire_ok (box : list msg) (os : option sess) (r : reply) : Prop :=
  match r with
  | RRetr n N wire => exists s m, os = Some s /\ resolve true box s n = Some m /\
                        wire = Pop3M.end_multiline (stuff (full (m_c m))) /\ N = msize (m_c m)
  | RTop _ wire => exists d, wire = Pop3M.end_multiline (stuff d)
  | _ => True
  end.

Lemma step_wire w e : wire_ok (inbox w) (psess w) (snd (step true w e)).
Proof.
  destruct e; try exact I. destruct (psess w) as [s|] eqn:Hs; [|cbn [step]; rewrite Hs; exact I].
  rewrite (step_pop _ Hs). destruct c; cbn [pop_step snd];
    try (crunch_goal; exact I).  (* no command but these two sends a payload *)
  - (* RETR *)
    destruct (valid_num s a) as [n|]; [|exact I].
    destruct (resolve true (inbox w) s n) as [m|] eqn:Er; [|exact I].
    rewrite dot_stuff_is_stuff. exists s, m. auto.
  - (* TOP *)
    destruct toks as [|a [|b [|x toks]]]; try exact I.
    destruct (valid_num s a) as [n|], b as [k|]; try exact I.
    destruct (k <? 0), (resolve true (inbox w) s n); try exact I.
    rewrite dot_stuff_is_stuff. eexists; reflexivity.
Qed.

Theorem retr_delivers : forall w e w' n N wire,
  step true w e = (w', RRetr n N wire) ->
  exists s u m, psess w = Some s /\ nth_error (s_uids s) (Z.to_nat (n - 1)) = Some u /\
    find_uid u (inbox w) = Some m /\
    delivers wire (full (m_c m)) /\ N = octets (full (m_c m)).
Proof.
  intros w e w' n N wire H. pose proof (step_wire w e) as W. rewrite H in W.
  destruct W as [s [m [Hs [Hr [-> ->]]]]]. apply resolve_uid in Hr. destruct Hr as [u [Hu Hm]].
  exists s, u, m. split; [exact Hs|]. split; [exact Hu|]. split; [exact Hm|]. split; [|reflexivity].
  unfold delivers, full. rewrite frame_receive, norm_ensure. reflexivity.
Qed.

Theorem top_delivers : forall w e w' n wire,
  step true w e = (w', RTop n wire) -> exists data, delivers wire data.
Proof.
  intros w e w' n wire H. pose proof (step_wire w e) as W. rewrite H in W. destruct W as [d ->].
  eexists. apply frame_receive.
Qed.

Theorem stat_is_list : forall w w1 c t,
  step true w (EPop PStat) = (w1, RStat c t) ->
  exists rows, snd (step true w (EPop (PList None))) = RListAll c t rows /\
    c = Z.of_nat (List.length rows) /\ t = fold_right (fun r a => snd r + a) 0 rows.
Proof.
  intros w w1 c t. cbn [step]. destruct (psess w) as [s|]; [|intros H; inversion H].
  cbn [pop_step]. destruct (scan true (inbox w) s) as [[[cnt tot] rows] s'] eqn:Es.
  intros [= _ <- <-]. exists rows. split; [reflexivity|]. exact (proj2 (scan_rows Es)).
Qed.

Theorem listing_numbers : forall w l, wf w -> forallb in_session l = true ->
  let w0 := fst (step true w EOpen) in
  let w1 := fst (run true w0 l) in
  let rs := snd (run true w0 l) in
  let shown := listed_numbers (List.length (inbox w)) (marks_of (combine l rs)) in
  (forall rows, snd (step true w1 (EPop (PUidl None))) = RUidlAll rows -> map fst rows = shown) /\
  (forall c t rows, snd (step true w1 (EPop (PList None))) = RListAll c t rows -> map fst rows = shown).
Proof.
  intros w l Hw Hl w0 w1 rs shown.
  destruct (run_marks _ l w0 _ eq_refl (open_sinv w Hw) Hl) as [s1 [A [B D]]].
  fold w1 in A, B. fold rs in D.
  assert (shown = filter (fun n => negb (memz n (s_del s1))) (py_range 1 (count s1 + 1))) as ->.
  { unfold shown, listed_numbers, marks_of, py_range, count. rewrite D, (i_keys B), (i_uids B), map_length, Z.add_simpl_r, Nat2Z.id.
    reflexivity. }
  split.
  - intros rows. rewrite (step_pop _ A). cbn [pop_step snd]. intros [= <-].
    unfold uidl_rows. rewrite map_map. apply map_id.
  - intros c t rows. rewrite (step_pop _ A). cbn [pop_step snd].
    destruct (scan true (inbox w1) s1) as [[[cnt tot] rows'] s'] eqn:Es. cbn [snd]. intros [= _ _ <-].
    exact (proj1 (scan_rows Es)).
Qed.

Lemma pcmd_eq_quit c : c = PQuit \/ c <> PQuit.
Proof. destruct c; try (right; discriminate). left; reflexivity. Qed.

Lemma pop_box b box s c : exists us, snd (fst (pop_step b box s c)) = drop_uids us box.
Proof.
  destruct (pcmd_eq_quit c) as [->|Hc].
  - eexists; reflexivity.
  - exists []. rewrite drop_uids_nil. apply pop_keeps_inbox; exact Hc.
Qed.

Lemma wf_step b w e : wf w -> wf (fst (step b w e)).
Proof.
  unfold wf. intros Hw. destruct e; cbn [step]; try exact Hw.
  - destruct (psess w) as [s|]; [|exact Hw].
    destruct (pop_box b (inbox w) s c) as [us Hus].
    destruct (pop_step b (inbox w) s c) as [[os box] r]. cbn [fst snd inbox next_uid] in *. subst box.
    apply Forall_drop; exact Hw.
  - cbn [fst inbox next_uid]. apply Forall_app; split.
    + eapply Forall_impl; [|exact Hw]. cbn; intros; lia.
    + constructor; [cbn; lia|constructor].
  - apply Forall_drop; exact Hw.
  - (* pack keeps the UIDs *)
    cbn [fst with_box inbox next_uid]. apply (Forall_map m_uid (fun u => u < next_uid w)).
    rewrite uids_renum. apply Forall_map, Hw.
Qed.

Theorem wf_reachable : forall b l, wf (fst (run b init_world l)).
Proof.
  intros b l. assert (forall w, wf w -> wf (fst (run b w l))) as H.
  { induction l as [|e l IH]; intros w Hw; [exact Hw|].
    rewrite run_cons. cbn [fst]. apply IH, wf_step, Hw. }
  apply H. constructor.
Qed.

Definition ex_c (x : Z) (n : nat) : content :=
  {| c_raw := [72; 58; 32; x; 13; 10; 13; 10] ++ repeat 46 n ++ [13; 10];
     c_hdr := [72; 58; 32; x; 13; 10; 13; 10];
     c_body := repeat 46 n ++ [13; 10] |}.

(* two messages; the POP3 session lists them; an IMAP session expunges the LAST one and a new,
   longer message is appended (MH gives it the freed key 2) *)
Definition ex_trace : list ev :=
  [EAppend (ex_c 65 1); EAppend (ex_c 66 1); EOpen; EPop (PList None); EPop (PUidl None);
   EExpunge [2]; EAppend (ex_c 67 3); EPop (PRetr (Some 2)); EPop (PList None)].

(* resolving message numbers through the MH key (asimap before fixes/C20-snapshot-by-uid.patch) is refuted:
   number 2 is listed with 11 octets and UID 2, RETR 2 then delivers the 13 octets of UID 3 *)
Example by_key_refuted : ~ sizes_stable (snd (run false init_world ex_trace)).
Proof.
  intros H.
  assert (11 = 13) as E; [|discriminate E].
  apply (H (nth 3 (snd (run false init_world ex_trace)) RNone)
           (nth 7 (snd (run false init_world ex_trace)) RNone) 2).
  1, 2: apply nth_In; vm_compute; lia.
  all: vm_compute; tauto.
Qed.

(* through the UID the same history answers "-ERR message not available" and the listing stays *)
Example by_uid_example :
  map size_rows (snd (run true init_world ex_trace)) =
  [[]; []; []; [(1, 11); (2, 11)]; []; []; []; []; [(1, 11); (2, 11)]] /\
  nth 7 (snd (run true init_world ex_trace)) RNone = RNotAvail /\
  nth 4 (snd (run true init_world ex_trace)) RNone = RUidlAll [(1, 1); (2, 2)].
Proof. vm_compute. auto. Qed.

(* DELE, RSET, DELE, QUIT with an interleaved append: exactly UID 1 goes *)
Example quit_example :
  let l := [EAppend (ex_c 65 1); EAppend (ex_c 66 2); EOpen; EPop (PDele (Some 2)); EPop PRset;
            EPop (PDele (Some 1)); EPop (PDele (Some 1)); EAppend (ex_c 67 0);
            EPop (PRetr (Some 2)); EPop PQuit; EObserve] in
  nth 10 (snd (run true init_world l)) RNone = RInbox [(2, 2); (3, 3)] /\
  nth 6 (snd (run true init_world l)) RNone = RNoSuch /\
  exists wire, nth 8 (snd (run true init_world l)) RNone = RRetr 2 12 wire /\
    receive wire = Some (full (ex_c 66 2)).
Proof. vm_compute. split; [reflexivity|]. split; [reflexivity|]. eexists; split; reflexivity. Qed.

Example stuffing_example :
  dot_stuff [46; 13; 10; 46; 46; 97; 13; 10; 98] = Ok [46; 46; 13; 10; 46; 46; 46; 97; 13; 10; 98] /\
  receive (end_multiline [46; 46; 13; 10; 46; 46; 46; 97; 13; 10; 98]) =
    Some [46; 13; 10; 46; 46; 97; 13; 10; 98; 13; 10].
Proof. vm_compute. auto. Qed.
