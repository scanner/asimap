(* Proofs/NamespaceP.v — proofs for property C17 (statements collected in Properties/C17.v).
   The mailboxes table of Model/Namespace.v stands for the tree [abs] of the reference model
   (Spec/NsSpec.v) as long as [inv] holds: no name twice, every superior name of a name present,
   INBOX under one spelling and selectable.  Every command keeps [inv] and moves [abs] as the
   reference model says ([sim]); what LIST / LSUB answer is then read off the tree.  Before that:
   the wildcard matcher is RFC 3501's relation. *)
From Coq Require Import List Ascii String Bool ZArith Lia.
From Asimap Require Import Spec.NsSpec Model.Glob Model.Namespace.
Import ListNotations.
Open Scope Z_scope.

Lemma NoDup_map_on {A B} (f : A -> B) (l : list A) :
  NoDup l -> (forall a b, In a l -> In b l -> f a = f b -> a = b) -> NoDup (map f l).
Proof.
  induction l as [|x l IH]; intros Hn Hi; cbn; [constructor|]. inversion Hn; subst. constructor.
  - intros Hx. apply in_map_iff in Hx as (y & E & Hy).
    assert (y = x) by (apply Hi; [right; exact Hy|left; reflexivity|exact E]). subst; contradiction.
  - apply IH; auto. intros a b Ha Hb; apply Hi; right; assumption.
Qed.

Lemma any_tail_spec f n : any_tail f n = true <-> exists n1 n2, n = n1 ++ n2 /\ f n2 = true.
Proof.
  induction n as [|x n IH]; cbn [any_tail].
  - rewrite orb_false_r. split.
    + intros H; exists [], []; auto.
    + intros (n1 & n2 & E & H). symmetry in E; apply app_eq_nil in E as [-> ->]; exact H.
  - rewrite orb_true_iff, IH. split.
    + intros [H|(n1 & n2 & -> & H)]; [exists [], (x :: n); auto|exists (x :: n1), n2; auto].
    + intros (n1 & n2 & E & H). destruct n1 as [|y n1]; cbn in E.
      * subst n2; left; exact H.
      * injection E as -> ->. right; exists n1, n2; auto.
Qed.

Lemma seg_tail_spec f n :
  seg_tail f n = true <-> exists n1 n2, n = n1 ++ n2 /\ ~ In c_slash n1 /\ f n2 = true.
Proof.
  induction n as [|x n IH]; cbn [seg_tail].
  - rewrite orb_false_r. split.
    + intros H; exists [], []; cbn; auto.
    + intros (n1 & n2 & E & _ & H). symmetry in E; apply app_eq_nil in E as [-> ->]; exact H.
  - rewrite orb_true_iff, andb_true_iff, negb_true_iff, Ascii.eqb_neq, IH. split.
    + intros [H|(Hx & n1 & n2 & -> & Hn & H)].
      * exists [], (x :: n); cbn; auto.
      * exists (x :: n1), n2; cbn; repeat split; auto. intros [E|E]; [congruence|auto].
    + intros (n1 & n2 & E & Hn & H). destruct n1 as [|y n1]; cbn in E.
      * subst n2; left; exact H.
      * injection E as -> ->. right. split; [intros ->; apply Hn; left; reflexivity|].
        exists n1, n2; repeat split; auto. intros Hi; apply Hn; right; exact Hi.
Qed.

Lemma tok_of_star : tok_of c_star = RAny. Proof. reflexivity. Qed.
Lemma tok_of_pct : tok_of c_pct = RSeg. Proof. reflexivity. Qed.
Lemma tok_of_lit c : c <> c_star -> c <> c_pct -> tok_of c = RLit c.
Proof.
  intros H1 H2. unfold tok_of.
  apply Ascii.eqb_neq in H1, H2. rewrite H1, H2. reflexivity.
Qed.

Lemma glob_complete p n : matches p n -> glob p n = true.
Proof.
  unfold glob, pattern_to_re.
  induction 1 as [|c p n Hs Hp _ IH|p n1 n2 _ IH|p n1 n2 Hn _ IH]; cbn [map].
  - reflexivity.
  - rewrite (tok_of_lit c Hs Hp). cbn [re_match]. rewrite Ascii.eqb_refl. exact IH.
  - apply any_tail_spec. eauto.
  - apply seg_tail_spec. eauto.
Qed.
Lemma glob_sound : forall p n, glob p n = true -> matches p n.
Proof.
  unfold glob, pattern_to_re. induction p as [|c p IH]; intros n; cbn [map].
  - destruct n; [constructor|discriminate].
  - destruct (ascii_dec c c_star) as [->|Hs]; [|destruct (ascii_dec c c_pct) as [->|Hp]].
    + rewrite tok_of_star. cbn [re_match]. rewrite any_tail_spec.
      intros (n1 & n2 & -> & H). apply M_star, IH, H.
    + rewrite tok_of_pct. cbn [re_match]. rewrite seg_tail_spec.
      intros (n1 & n2 & -> & Hn & H). apply M_pct; [exact Hn|apply IH, H].
    + rewrite (tok_of_lit c Hs Hp). cbn [re_match]. destruct n as [|x n]; [discriminate|].
      rewrite andb_true_iff, Ascii.eqb_eq. intros [-> H]. apply M_lit; auto.
Qed.
Theorem glob_correct : forall p n, glob p n = true <-> matches p n.
Proof. split; [apply glob_sound|apply glob_complete]. Qed.

Lemma lower_ascii_cases c : let n := nat_of_ascii c in
  (lower_ascii c = c /\ ~ (65 <= n <= 90)%nat) \/
  (nat_of_ascii (lower_ascii c) = (n + 32)%nat /\ (65 <= n <= 90)%nat).
Proof.
  unfold lower_ascii. destruct (Nat.leb 65 _ && Nat.leb _ 90) eqn:E; [right|left].
  - apply andb_true_iff in E as [E1 E2]. apply Nat.leb_le in E1, E2.
    split; [apply nat_ascii_embedding; lia|lia].
  - split; [reflexivity|]. intros [H1 H2]. apply Nat.leb_le in H1, H2. rewrite H1, H2 in E. discriminate E.
Qed.
Lemma lower_ascii_idem c : lower_ascii (lower_ascii c) = lower_ascii c.
Proof.
  destruct (lower_ascii_cases c) as [[E _]|[E H]]; [congruence|].
  destruct (lower_ascii_cases (lower_ascii c)) as [[E' _]|[_ H']]; [exact E'|lia].
Qed.
Lemma lower_ascii_eq c k : (nat_of_ascii k < 65)%nat -> lower_ascii c = k <-> c = k.
Proof.
  intros Hk. destruct (lower_ascii_cases c) as [[-> _]|[E H]]; [reflexivity|].
  split; intros <-; lia.
Qed.
Lemma lower_ascii_star c : lower_ascii c = c_star <-> c = c_star.
Proof. apply lower_ascii_eq. cbv; lia. Qed.
Lemma lower_ascii_pct c : lower_ascii c = c_pct <-> c = c_pct.
Proof. apply lower_ascii_eq. cbv; lia. Qed.
Lemma lower_ascii_slash c : lower_ascii c = c_slash <-> c = c_slash.
Proof. apply lower_ascii_eq. cbv; lia. Qed.

Lemma lower_app a b : lower (a ++ b) = lower a ++ lower b.
Proof. apply map_app. Qed.
Lemma lower_slash n : In c_slash (lower n) <-> In c_slash n.
Proof.
  unfold lower; rewrite in_map_iff. split.
  - intros (x & E & H). apply -> lower_ascii_slash in E. subst x; exact H.
  - intros H; exists c_slash; split; [reflexivity|exact H].
Qed.

Lemma matches_lower p n : matches p n -> matches (lower p) (lower n).
Proof.
  induction 1 as [|c p n H1 H2 H IH|p n1 n2 H IH|p n1 n2 Hn H IH]; cbn [lower map].
  - constructor.
  - apply M_lit; [| |exact IH].
    + rewrite lower_ascii_star; exact H1.
    + rewrite lower_ascii_pct; exact H2.
  - fold (lower (n1 ++ n2)). rewrite lower_app. apply (M_star (lower p)), IH.
  - fold (lower (n1 ++ n2)). rewrite lower_app. apply (M_pct (lower p)); [|exact IH].
    rewrite lower_slash; exact Hn.
Qed.

(* a match of the lowered pattern on a lowered name comes from a match of the pattern on a
   spelling of that name: literals are taken in the pattern's spelling, what a wildcard covers
   in the spelling given *)
Lemma matches_unlower q m : matches q m -> forall p n, q = lower p -> m = lower n ->
  exists s, lower s = m /\ matches p s.
Proof.
  induction 1 as [|c q m Hs Hp _ IH|q m1 m2 _ IH|q m1 m2 Hm _ IH]; intros [|c' p] n Eq En;
    try discriminate Eq; [|injection Eq as Ec ->; symmetry in En ..].
  - exists []; split; [reflexivity|constructor].
  - apply map_eq_cons in En as (_ & n' & _ & _ & En). destruct (IH p n' eq_refl (eq_sym En)) as (s & <- & M).
    exists (c' :: s). split; [cbn; rewrite Ec; reflexivity|].
    apply M_lit; [rewrite <- lower_ascii_star, <- Ec; exact Hs|rewrite <- lower_ascii_pct, <- Ec; exact Hp|exact M].
  - symmetry in Ec. apply lower_ascii_star in Ec as ->.
    apply map_eq_app in En as (n1 & n2 & _ & <- & En). destruct (IH p n2 eq_refl (eq_sym En)) as (s & <- & M).
    exists (n1 ++ s). split; [apply lower_app|apply M_star, M].
  - symmetry in Ec. apply lower_ascii_pct in Ec as ->.
    apply map_eq_app in En as (n1 & n2 & _ & <- & En). destruct (IH p n2 eq_refl (eq_sym En)) as (s & <- & M).
    exists (n1 ++ s). split; [apply lower_app|apply M_pct; [rewrite <- lower_slash; exact Hm|exact M]].
Qed.

Theorem glob_lower_correct ip n :
  glob (lower ip) (lower n) = true <-> exists s, lower s = lower n /\ matches ip s.
Proof.
  rewrite glob_correct. split.
  - intros H. exact (matches_unlower _ _ H ip n eq_refl eq_refl).
  - intros (s & <- & H). apply matches_lower, H.
Qed.
Theorem glob_inbox_correct : forall ip,
  glob (lower ip) (la "inbox") = true <-> exists s, lower s = la "inbox" /\ matches ip s.
Proof. intros ip. exact (glob_lower_correct ip (la "inbox")). Qed.

Lemma ceqb_eq a b : ceqb a b = true <-> a = b.
Proof.
  revert b; induction a as [|x a IH]; intros [|y b]; cbn [ceqb];
    try (split; intros H; (reflexivity || discriminate H)).
  rewrite andb_true_iff, Ascii.eqb_eq, IH. split; [intros [-> ->]; reflexivity|intros [= -> ->]; auto].
Qed.
Lemma neqb_eq a b : neqb a b = true <-> a = b.
Proof.
  revert b; induction a as [|x a IH]; intros [|y b]; cbn [neqb];
    try (split; intros H; (reflexivity || discriminate H)).
  rewrite andb_true_iff, ceqb_eq, IH. split; [intros [-> ->]; reflexivity|intros [= -> ->]; auto].
Qed.
Lemma neqb_spec a b : reflect (a = b) (neqb a b).
Proof. apply iff_reflect. symmetry. apply neqb_eq. Qed.
Lemma neqb_refl a : neqb a a = true.
Proof. apply neqb_eq; reflexivity. Qed.
Lemma name_dec (a b : name) : {a = b} + {a <> b}.
Proof. destruct (neqb_spec a b); auto. Qed.

Lemma is_prefix_spec a m : is_prefix a m = true <-> exists s, m = a ++ s.
Proof.
  revert m; induction a as [|x a IH]; intros m; cbn [is_prefix].
  - split; [intros _; exists m; reflexivity|auto].
  - destruct m as [|y m].
    + split; [discriminate|intros (s & E); discriminate].
    + rewrite andb_true_iff, ceqb_eq, IH. split.
      * intros (-> & s & ->). exists s; reflexivity.
      * intros (s & E). injection E as -> ->. split; [reflexivity|exists s; reflexivity].
Qed.

Lemma belowb_spec a m : belowb a m = true <-> below a m.
Proof.
  unfold belowb, below. rewrite andb_true_iff, is_prefix_spec, Nat.ltb_lt. split.
  - intros ((s & ->) & L). exists s; split; [|reflexivity]. intros ->. rewrite app_nil_r in L; lia.
  - intros (s & Hs & ->). split; [exists s; reflexivity|].
    rewrite app_length. destruct s; [contradiction|cbn; lia].
Qed.

Lemma on_path_nil p : ~ on_path p [].
Proof. intros (Hp & s & E). symmetry in E; apply app_eq_nil in E as [-> _]; contradiction. Qed.

Lemma in_inits p n : In p (inits n) <-> on_path p n.
Proof.
  revert p; induction n as [|c n IH]; intros p; cbn [inits In].
  - split; [contradiction|apply on_path_nil].
  - rewrite in_map_iff. split.
    + intros [<-|(q & <- & Hq)].
      * split; [discriminate|exists n; reflexivity].
      * apply IH in Hq as (_ & s & ->). split; [discriminate|exists s; reflexivity].
    + intros (Hp & s & E). destruct p as [|x p]; [contradiction|]. injection E as -> E.
      destruct p as [|y p]; [left; reflexivity|right].
      exists (y :: p); split; [reflexivity|]. apply IH. split; [discriminate|exists s; exact E].
Qed.

Lemma below_app o l n : n = o ++ l -> o <> n -> below o n.
Proof. intros -> H. exists l. split; [intros ->; apply H; symmetry; apply app_nil_r|reflexivity]. Qed.
Lemma below_on_path n m : n <> [] -> below n m -> on_path n m.
Proof. intros Hn (s & _ & ->). split; [exact Hn|exists s; reflexivity]. Qed.
Lemma on_path_refl n : n <> [] -> on_path n n.
Proof. intros H; split; [exact H|exists []; symmetry; apply app_nil_r]. Qed.
Lemma on_path_trans a b c : on_path a b -> on_path b c -> on_path a c.
Proof.
  intros (Ha & s & ->) (_ & t & ->). split; [exact Ha|exists (s ++ t); symmetry; apply app_assoc].
Qed.
Lemma on_path_app q n s : on_path q (n ++ s) -> on_path q n \/ exists l t, q = n ++ l /\ s = l ++ t.
Proof.
  intros (Hq & t & E). apply app_eq_app in E as (l & [[E1 E2]|[E1 E2]]); [left|right; eauto].
  split; [exact Hq|exists l; exact E1].
Qed.
Lemma on_path_single q c : on_path q [c] -> q = [c].
Proof.
  intros (Hq & s & E). destruct q as [|x q]; [contradiction|]. injection E as -> E.
  destruct q; [reflexivity|discriminate].
Qed.

Definition comp_ok (c : comp) : Prop := c <> [] /\ ~ In c_slash c.

Lemma split_at_slash (a b u v : list ascii) :
  ~ In c_slash a -> ~ In c_slash b -> a ++ c_slash :: u = b ++ c_slash :: v -> a = b /\ u = v.
Proof.
  revert b; induction a as [|x a IH]; intros [|y b] Ha Hb E; cbn in E.
  - injection E as ->; auto.
  - injection E as <- _. exfalso; apply Hb; left; reflexivity.
  - injection E as -> _. exfalso; apply Ha; left; reflexivity.
  - injection E as -> E. destruct (IH b) as [-> ->]; auto.
    + intros H; apply Ha; right; exact H.
    + intros H; apply Hb; right; exact H.
Qed.

Lemma flat_cons c r : flat (c :: r) = match r with [] => c | _ :: _ => c ++ c_slash :: flat r end.
Proof. reflexivity. Qed.

Lemma flat_nil n : Forall comp_ok n -> flat n = [] -> n = [].
Proof.
  destruct n as [|c r]; [reflexivity|]. intros H E. inversion H as [|? ? [Hc _] _]; subst.
  rewrite flat_cons in E. destruct r; [contradiction|]. destruct c; [contradiction|discriminate E].
Qed.
Lemma flat_inj : forall n1 n2, Forall comp_ok n1 -> Forall comp_ok n2 -> flat n1 = flat n2 -> n1 = n2.
Proof.
  induction n1 as [|c1 r1 IH]; intros [|c2 r2] H1 H2 E;
    [reflexivity|symmetry; apply flat_nil; auto|apply flat_nil; auto|].
  - inversion H1 as [|? ? [Hc1 Hs1] Hr1]; inversion H2 as [|? ? [Hc2 Hs2] Hr2]; subst.
    rewrite !flat_cons in E. destruct r1 as [|d1 r1], r2 as [|d2 r2].
    + subst; reflexivity.
    + exfalso; apply Hs1; subst c1. apply in_or_app; right; left; reflexivity.
    + exfalso; apply Hs2; subst c2. apply in_or_app; right; left; reflexivity.
    + apply split_at_slash in E as [-> E]; auto. f_equal. apply IH; auto.
Qed.

Lemma is_inbox_inbox : is_inbox inbox = true.
Proof. reflexivity. Qed.
Lemma is_inbox_single n : is_inbox n = true -> exists c, n = [c].
Proof. destruct n as [|c [|d r]]; cbn; try discriminate. eauto. Qed.
Lemma canon_not_inbox n : is_inbox n = false -> canon n = n.
Proof. unfold canon; intros ->; reflexivity. Qed.
Lemma canon_inbox n : is_inbox n = true -> canon n = inbox.
Proof. unfold canon; intros ->; reflexivity. Qed.

(* what [name_ok] asks of every level, and of the first level of a longer name *)
Definition comp_okb (c : comp) : bool :=
  match c with [] => false | _ :: _ => true end && negb (existsb (Ascii.eqb "/"%char) c).
Definition first_ok (c : comp) : bool := implb (ceqb (lower c) (la "inbox")) (ceqb c (la "inbox")).

Lemma comp_okb_spec c : comp_okb c = true <-> comp_ok c.
Proof.
  unfold comp_okb, comp_ok. rewrite andb_true_iff, negb_true_iff, <- not_true_iff_false, existsb_exists. split.
  - intros [Hc Hs]. split; [intros ->; discriminate Hc|].
    intros Hi. apply Hs. exists c_slash. split; [exact Hi|reflexivity].
  - intros [Hc Hs]. split; [destruct c; [contradiction|reflexivity]|].
    intros (x & Hi & E). apply Ascii.eqb_eq in E. subst x. exact (Hs Hi).
Qed.

Lemma name_ok_cons c r : name_ok (c :: r) = true <->
  Forall comp_ok (c :: r) /\ (r <> [] -> first_ok c = true /\ existsb all_digits (c :: r) = false).
Proof.
  assert (L : Forall comp_ok (c :: r) <-> forallb comp_okb (c :: r) = true).
  { rewrite Forall_forall, forallb_forall. split; intros H x Hx; apply comp_okb_spec, H, Hx. }
  rewrite L.
  change (name_ok (c :: r)) with
    (true && forallb comp_okb (c :: r) &&
     match r with [] => true | _ :: _ => first_ok c && negb (existsb all_digits (c :: r)) end).
  destruct r as [|d r]; cbn [andb]; rewrite ?andb_true_r, ?andb_true_iff, ?negb_true_iff.
  - split; [intros H; split; [exact H|intros []; reflexivity]|intros [H _]; exact H].
  - split; [intros (H1 & H2 & H3); auto|intros (H1 & H2); split; [exact H1|apply H2; discriminate]].
Qed.

Lemma name_ok_nonempty n : name_ok n = true -> n <> [].
Proof. intros H ->. discriminate H. Qed.
Lemma name_ok_comps n : name_ok n = true -> Forall comp_ok n.
Proof. destruct n as [|c r]; [constructor|]. intros H. apply name_ok_cons, H. Qed.

Lemma name_ok_app p s : p <> [] -> s <> [] -> name_ok (p ++ s) = true <->
  (Forall comp_ok p /\ Forall comp_ok s) /\ first_ok (hd [] p) = true /\
  existsb all_digits p = false /\ existsb all_digits s = false.
Proof.
  intros Hp Hs. destruct p as [|c p]; [contradiction|]. cbn [app hd]. rewrite name_ok_cons.
  change (c :: p ++ s) with ((c :: p) ++ s). rewrite Forall_app, existsb_app, orb_false_iff.
  split; [intros [H1 H2]; split; [exact H1|apply H2]|intros [H1 H2]; auto].
  destruct p, s; (contradiction || discriminate).
Qed.

Lemma name_ok_on_path n p : name_ok n = true -> on_path p n -> name_ok p = true.
Proof.
  intros Hn (Hp & s & ->). destruct s as [|d s]; [rewrite app_nil_r in Hn; exact Hn|].
  apply name_ok_app in Hn as ([G _] & F & D & _); [|exact Hp|discriminate].
  destruct p as [|c p]; [contradiction|]. apply name_ok_cons. auto.
Qed.

Lemma on_path_inbox_case n p : name_ok n = true -> on_path p n -> is_inbox p = true ->
  p = inbox \/ p = n.
Proof.
  intros Hn (Hp & s & ->) Hi. destruct s as [|d s]; [right; symmetry; apply app_nil_r|left].
  apply name_ok_app in Hn as (_ & F & _); [|exact Hp|discriminate].
  destruct (is_inbox_single _ Hi) as (c & ->). unfold first_ok in F. cbn [is_inbox hd] in Hi, F.
  rewrite Hi in F. apply ceqb_eq in F. subst c; reflexivity.
Qed.

Lemma new_name_ok_not_inbox n : new_name_ok n = true -> is_inbox n = false.
Proof. unfold new_name_ok. rewrite !andb_true_iff, !negb_true_iff. tauto. Qed.
Lemma not_inbox_neq n : is_inbox n = false -> n <> inbox.
Proof. intros H ->. rewrite is_inbox_inbox in H. discriminate H. Qed.

Lemma name_ok_swap o n s : name_ok n = true -> new_name_ok n = true -> o <> [] ->
  name_ok (o ++ s) = true -> name_ok (n ++ s) = true.
Proof.
  intros Hn Hw Ho Hos. destruct s as [|d s]; [rewrite app_nil_r; exact Hn|].
  apply name_ok_app in Hos as ([_ G] & _ & _ & D); [|exact Ho|discriminate].
  unfold new_name_ok in Hw. rewrite !andb_true_iff, !negb_true_iff in Hw. destruct Hw as [[Hi Dn] _].
  destruct n as [|c r]; [discriminate|]. apply name_ok_app; [discriminate..|].
  apply name_ok_cons in Hn as [N1 N2]. repeat split; auto. cbn [hd].
  destruct r; [|apply N2; discriminate]. unfold first_ok. cbn [is_inbox] in Hi. rewrite Hi. reflexivity.
Qed.

(* [find_row] and [names] on a list of rows: [update], [remove] and [rename_rows] act on the list *)
Definition findr (l : list row) (n : name) : option row := find (fun r => neqb (r_name r) n) l.
Definition lnames (l : list row) : list name := map r_name l.
Definition names (st : state) : list name := lnames (rows st).

Lemma find_row_findr st n : find_row st n = findr (rows st) n.
Proof. reflexivity. Qed.

Lemma findr_some l n r : findr l n = Some r -> In r l /\ r_name r = n.
Proof. intros H; apply find_some in H as [H1 H2]. apply neqb_eq in H2; auto. Qed.
Lemma findr_none l n : findr l n = None <-> ~ In n (lnames l).
Proof.
  unfold findr, lnames. split.
  - intros H Hi. apply in_map_iff in Hi as (r & E & Hr).
    pose proof (find_none _ _ H r Hr) as F. cbn in F. rewrite E, neqb_refl in F; discriminate.
  - intros H. destruct (find _ l) eqn:E; [|reflexivity].
    apply find_some in E as [E1 E2]. apply neqb_eq in E2. exfalso; apply H. apply in_map_iff; eauto.
Qed.
Lemma findr_in_names l n r : findr l n = Some r -> In n (lnames l).
Proof. intros H; apply findr_some in H as [H <-]. apply in_map; exact H. Qed.
Lemma findr_in l r : NoDup (lnames l) -> In r l -> findr l (r_name r) = Some r.
Proof.
  induction l as [|x l IH]; intros Hn Hi; [contradiction|]. cbn [lnames map] in Hn. inversion Hn as [|? ? Hx Hn']; subst.
  unfold findr; cbn [find]. destruct Hi as [->|Hi]; [rewrite neqb_refl; reflexivity|].
  destruct (neqb_spec (r_name x) (r_name r)) as [E|_]; [|apply IH; auto].
  exfalso; apply Hx. rewrite E. apply in_map; exact Hi.
Qed.

Lemma lnames_app a b : lnames (a ++ b) = lnames a ++ lnames b.
Proof. apply map_app. Qed.
Lemma findr_app l1 l2 n :
  findr (l1 ++ l2) n = match findr l1 n with Some r => Some r | None => findr l2 n end.
Proof.
  unfold findr. induction l1 as [|x l1 IH]; cbn [app find]; [reflexivity|].
  destruct (neqb (r_name x) n); [reflexivity|exact IH].
Qed.

(* a look-up after every row went through g, which renames the rows the way h renames m:
   g keeps names and h is the identity for UPDATE, both move a subtree for RENAME *)
Lemma findr_map g h l m :
  (forall r, In r l -> neqb (r_name (g r)) (h m) = neqb (r_name r) m) ->
  findr (map g l) (h m) = option_map g (findr l m).
Proof.
  unfold findr. induction l as [|x l IH]; intros H; cbn [map find]; [reflexivity|].
  rewrite (H x) by (left; reflexivity). destruct (neqb (r_name x) m); [reflexivity|].
  apply IH. intros r Hr; apply H; right; exact Hr.
Qed.

Definition keeps_name (f : row -> row) : Prop := forall r, r_name (f r) = r_name r.

Lemma keeps_with_nosel b : keeps_name (with_nosel b). Proof. intros r; reflexivity. Qed.
Lemma keeps_with_sub b : keeps_name (with_sub b). Proof. intros r; reflexivity. Qed.
Lemma keeps_with_msgs u l : keeps_name (with_msgs u l). Proof. intros r; reflexivity. Qed.
Lemma keeps_deleted vv : keeps_name (deleted_row vv). Proof. intros r; reflexivity. Qed.
Lemma keeps_append c f : keeps_name (append_row c f). Proof. intros r; reflexivity. Qed.

Lemma update_names n f l : keeps_name f -> lnames (update n f l) = lnames l.
Proof.
  intros Hf. unfold lnames, update. rewrite map_map. apply map_ext. intros r.
  destruct (neqb (r_name r) n); [apply Hf|reflexivity].
Qed.
Lemma findr_update n f l m : keeps_name f ->
  findr (update n f l) m = option_map (fun r => if neqb m n then f r else r) (findr l m).
Proof.
  intros Hf. unfold update. rewrite (findr_map _ (fun x => x)).
  - destruct (findr l m) as [r|] eqn:E; [apply findr_some in E as [_ <-]|]; reflexivity.
  - intros r _. destruct (neqb (r_name r) n); [rewrite Hf|]; reflexivity.
Qed.
Lemma in_update n f l r : In r (update n f l) -> exists r0, In r0 l /\ (r = r0 \/ (r = f r0 /\ r_name r0 = n)).
Proof.
  unfold update; rewrite in_map_iff. intros (r0 & E & H). exists r0; split; [exact H|].
  destruct (neqb (r_name r0) n) eqn:En; [right; split; [auto|apply neqb_eq, En]|left; auto].
Qed.

Lemma remove_names n l : lnames (remove n l) = filter (fun m => negb (neqb m n)) (lnames l).
Proof.
  unfold lnames, remove. induction l as [|x l IH]; cbn [filter map]; [reflexivity|].
  destruct (negb (neqb (r_name x) n)); cbn [map]; rewrite IH; reflexivity.
Qed.
Lemma findr_remove n l m : findr (remove n l) m = if neqb m n then None else findr l m.
Proof.
  unfold findr, remove. induction l as [|x l IH]; cbn [filter find]; [destruct (neqb m n); reflexivity|].
  destruct (neqb_spec (r_name x) n) as [E|E]; cbn [negb find]; rewrite IH.
  - destruct (neqb_spec m n) as [_|Hm]; [reflexivity|]. destruct (neqb_spec (r_name x) m); [congruence|reflexivity].
  - destruct (neqb_spec (r_name x) m) as [<-|_]; [|reflexivity]. destruct (neqb_spec (r_name x) n); [contradiction|reflexivity].
Qed.

Definition closed (ns : list name) : Prop := forall m p, In m ns -> on_path p m -> In p ns.

Record inv (st : state) : Prop := {
  inv_nodup : NoDup (names st);
  inv_closed : closed (names st);
  inv_ok : forall m, In m (names st) -> name_ok m = true;
  inv_inbox1 : forall m, In m (names st) -> is_inbox m = true -> m = inbox;
  inv_inbox : exists r, findr (rows st) inbox = Some r /\ r_nosel r = false }.

Lemma rows_nodup st : inv st -> NoDup (rows st).
Proof. intros I. apply (NoDup_map_inv r_name). apply I. Qed.
Lemma row_name_inj st a b : inv st -> In a (rows st) -> In b (rows st) -> r_name a = r_name b -> a = b.
Proof.
  intros I Ha Hb E. pose proof (findr_in _ _ (inv_nodup _ I) Ha) as Fa.
  rewrite E, (findr_in _ _ (inv_nodup _ I) Hb) in Fa. congruence.
Qed.

Lemma abs_findr st n : abs st n = option_map info_of (findr (rows st) n).
Proof. reflexivity. Qed.
Lemma abs_none st n : abs st n = None <-> ~ In n (names st).
Proof.
  rewrite abs_findr. unfold names. rewrite <- findr_none. destruct (findr (rows st) n); cbn; split; congruence.
Qed.
Lemma abs_some st n : abs st n <> None <-> In n (names st).
Proof.
  rewrite abs_none. destruct (in_dec name_dec n (names st)); tauto.
Qed.

Lemma find_row_view st n :
  (exists r, find_row st n = Some r /\ abs st n = Some (info_of r) /\ In n (names st)) \/
  (find_row st n = None /\ abs st n = None /\ ~ In n (names st)).
Proof.
  unfold abs. destruct (find_row st n) as [r|] eqn:E; [left; exists r|right]; repeat split.
  - eapply findr_in_names, E.
  - apply findr_none, E.
Qed.

Lemma find_row_update st n f vc m : keeps_name f ->
  find_row {| rows := update n f (rows st); vv_ctr := vc |} m =
  option_map (fun r => if neqb m n then f r else r) (find_row st m).
Proof. apply findr_update. Qed.
Lemma abs_update st n f vc m : keeps_name f ->
  abs {| rows := update n f (rows st); vv_ctr := vc |} m =
  if neqb m n then option_map (fun r => info_of (f r)) (find_row st n) else abs st m.
Proof.
  intros Hf. unfold abs. rewrite find_row_update by exact Hf.
  destruct (neqb_spec m n) as [->|_]; destruct (find_row st _); reflexivity.
Qed.

Lemma update_sim st n f vc r : inv st -> keeps_name f -> find_row st n = Some r ->
  (n = inbox -> r_nosel (f r) = r_nosel r) ->
  let st' := {| rows := update n f (rows st); vv_ctr := vc |} in
  inv st' /\ abs st' n = Some (info_of (f r)) /\ only_at (abs st) (abs st') n.
Proof.
  intros I Hf Hr Hi st'.
  assert (Hn : names st' = names st) by (apply update_names, Hf).
  split; [|split].
  - constructor; rewrite ?Hn; try apply I.
    destruct (inv_inbox _ I) as (r0 & H0 & Hs). rewrite <- find_row_findr in *.
    unfold st'. rewrite find_row_update, H0 by exact Hf.
    eexists; split; [reflexivity|].
    destruct (neqb_spec inbox n) as [<-|_]; [|exact Hs]. rewrite H0 in Hr; injection Hr as ->.
    rewrite Hi by reflexivity. exact Hs.
  - unfold st'. rewrite abs_update, neqb_refl, Hr by exact Hf. reflexivity.
  - intros m Hm. unfold st'. rewrite abs_update by exact Hf. destruct (neqb_spec m n); [contradiction|reflexivity].
Qed.

Lemma has_kids_spec st n : has_kids st n = true <-> exists m, In m (names st) /\ below n m.
Proof.
  unfold has_kids. rewrite existsb_exists. split.
  - intros (r & Hr & Hb). exists (r_name r); split; [apply in_map; exact Hr|apply belowb_spec, Hb].
  - intros (m & Hm & Hb). apply in_map_iff in Hm as (r & <- & Hr). exists r; split; [exact Hr|apply belowb_spec, Hb].
Qed.
Lemma has_kids_inferiors st n : has_kids st n = true <-> has_inferiors (abs st) n.
Proof.
  rewrite has_kids_spec. unfold has_inferiors. split; intros (m & H1 & H2); exists m.
  - split; [exact H2|apply abs_some, H1].
  - split; [apply abs_some, H2|exact H1].
Qed.

Lemma abs_remove st n vc m :
  abs {| rows := remove n (rows st); vv_ctr := vc |} m = if neqb m n then None else abs st m.
Proof. rewrite !abs_findr. cbn [rows]. rewrite findr_remove. destruct (neqb m n); reflexivity. Qed.

Lemma remove_sim st n : inv st -> has_kids st n = false -> n <> inbox ->
  let st' := {| rows := remove n (rows st); vv_ctr := vv_ctr st |} in
  inv st' /\ abs st' n = None /\ only_at (abs st) (abs st') n.
Proof.
  intros I Hk Hi st'.
  assert (A : forall m, abs st' m = if neqb m n then None else abs st m) by (intros m; apply abs_remove).
  assert (Hn : forall m, In m (names st') <-> In m (names st) /\ m <> n).
  { intros m. rewrite <- !abs_some, A. destruct (neqb_spec m n); intuition congruence. }
  split; [|split].
  - constructor.
    + unfold names; cbn [st' rows]. rewrite remove_names. apply NoDup_filter, I.
    + intros m p Hm Hp. apply Hn in Hm as [Hm Hne]. apply Hn. split; [apply (inv_closed _ I m p Hm Hp)|].
      (* a name above m other than m itself would have m below it *)
      intros ->. assert (has_kids st n = true); [|congruence].
      apply has_kids_spec. exists m; split; [exact Hm|].
      destruct Hp as (_ & s & E). exact (below_app n s m E (not_eq_sym Hne)).
    + intros m Hm. apply Hn in Hm as [Hm _]. apply (inv_ok _ I), Hm.
    + intros m Hm. apply Hn in Hm as [Hm _]. apply (inv_inbox1 _ I), Hm.
    + destruct (inv_inbox _ I) as (r & Hr & Hs). exists r. cbn [st' rows]. rewrite findr_remove.
      destruct (neqb_spec inbox n); [congruence|auto].
  - rewrite A, neqb_refl. reflexivity.
  - intros m Hm. rewrite A. destruct (neqb_spec m n); [contradiction|reflexivity].
Qed.

Lemma adds_ext T T' (P Q : name -> Prop) : (forall m, P m <-> Q m) -> adds T T' P -> adds T T' Q.
Proof.
  intros H A m. destruct (A m) as [(H1 & H2 & H3)|(H1 & H2)].
  - left; split; [apply H, H1|auto].
  - right; split; [|exact H2]. intros [Hq Hn]; apply H1; split; [apply H, Hq|exact Hn].
Qed.
Lemma adds_refl (T : tree) (P : name -> Prop) : (forall m, P m -> T m <> None) -> adds T T P.
Proof. intros H m. right. split; [|reflexivity]. intros [Hp Hn]. apply (H m Hp Hn). Qed.
Lemma adds_trans T T1 T2 (P Q : name -> Prop) :
  adds T T1 P -> adds T1 T2 Q -> adds T T2 (fun m => P m \/ Q m).
Proof.
  intros A B m.
  destruct (A m) as [(Hp & Hn & i & E & F)|(Hn & E)], (B m) as [(Hq & Hn1 & j & E1 & F1)|(Hn1 & E1)].
  - congruence.
  - left. split; [left; exact Hp|]. split; [exact Hn|]. exists i. rewrite E1. auto.
  - left. split; [right; exact Hq|]. split; [congruence|]. exists j; auto.
  - right. split; [|congruence]. intros [[H|H] H0]; [apply Hn; auto|apply Hn1; split; [exact H|congruence]].
Qed.
Lemma adds_dom T T' (P : name -> Prop) m : adds T T' P -> (T' m <> None <-> T m <> None \/ P m).
Proof.
  intros A. destruct (A m) as [(Hp & Hn & i & E & _)|(Hn & E)]; rewrite E.
  - split; [auto|discriminate].
  - split; [auto|]. intros [H|H]; [exact H|]. intros H0; apply Hn; auto.
Qed.

(* the loop that CREATE runs over the chain of a name and the restart over the special-use names *)
Definition add_all (st : state) (L : list name) : state := fold_left add_if_missing L st.

Lemma create_chain_add_all st n : create_chain st n = add_all st (rev (inits n)).
Proof. reflexivity. Qed.

Lemma add_if_missing_cases st p :
  (In p (names st) /\ add_if_missing st p = st) \/
  (~ In p (names st) /\ rows (add_if_missing st p) = rows st ++ [new_row p (vv_ctr st + 1)]).
Proof.
  unfold add_if_missing.
  destruct (find_row_view st p) as [(r & -> & _ & Hp)|(-> & _ & Hp)]; [left|right]; split; auto.
Qed.

Lemma find_row_add_if_missing st p m :
  find_row (add_if_missing st p) m =
  match find_row st m with
  | Some r => Some r
  | None => if neqb p m then Some (new_row p (vv_ctr st + 1)) else None
  end.
Proof.
  destruct (add_if_missing_cases st p) as [[Hp ->]|[_ E]].
  - destruct (find_row st m) eqn:F; [reflexivity|]. apply findr_none in F.
    destruct (neqb_spec p m) as [<-|_]; [contradiction|reflexivity].
  - rewrite !find_row_findr, E, findr_app. destruct (findr (rows st) m); reflexivity.
Qed.

Lemma fresh_new_row m vv : fresh m (info_of (new_row m vv)).
Proof. repeat split. Qed.

Lemma add_if_missing_adds st p : adds (abs st) (abs (add_if_missing st p)) (eq p).
Proof.
  intros m. unfold abs. rewrite find_row_add_if_missing.
  destruct (find_row st m) as [r|]; [right; split; [intros [_ H]; discriminate H|reflexivity]|].
  destruct (neqb_spec p m) as [<-|Hne].
  - left. repeat split. eexists; split; [reflexivity|apply fresh_new_row].
  - right. split; [intros [H _]; contradiction|reflexivity].
Qed.

Lemma add_all_adds L : forall st, adds (abs st) (abs (add_all st L)) (fun m => In m L).
Proof.
  induction L as [|p L IH]; intros st.
  - apply adds_refl. intros m [].
  - exact (adds_trans _ _ _ _ _ (add_if_missing_adds st p) (IH _)).
Qed.
Lemma add_all_names L st m : In m (names (add_all st L)) <-> In m (names st) \/ In m L.
Proof. rewrite <- !abs_some. exact (adds_dom _ _ _ m (add_all_adds L st)). Qed.
Lemma add_all_keeps L : forall st m r, find_row st m = Some r -> find_row (add_all st L) m = Some r.
Proof.
  induction L as [|p L IH]; intros st m r H; [exact H|]. apply IH. rewrite find_row_add_if_missing, H. reflexivity.
Qed.

Lemma add_all_nodup L : forall st, NoDup (names st) -> NoDup (names (add_all st L)).
Proof.
  induction L as [|p L IH]; intros st H; [exact H|]. apply IH.
  destruct (add_if_missing_cases st p) as [[_ ->]|[Hp E]]; [exact H|].
  unfold names. rewrite E, lnames_app. apply (NoDup_Add (Add_app p (lnames (rows st)) [])).
  rewrite app_nil_r. split; assumption.
Qed.

(* the names of L may come in any order (CREATE visits the chain deepest first): the table is
   closed again once all of them are in *)
Lemma add_all_inv L st : inv st ->
  (forall p, In p L -> name_ok p = true) ->
  (forall p, In p L -> is_inbox p = true -> p = inbox) ->
  (forall p q, In p L -> on_path q p -> In q L \/ In q (names st)) ->
  inv (add_all st L).
Proof.
  intros I H1 H2 H3. constructor.
  - apply add_all_nodup, I.
  - intros m p Hm Hp. apply add_all_names. apply add_all_names in Hm as [Hm|Hm].
    + left. apply (inv_closed _ I m p Hm Hp).
    + destruct (H3 m p Hm Hp); auto.
  - intros m Hm. apply add_all_names in Hm as [Hm|Hm]; [apply (inv_ok _ I), Hm|apply H1, Hm].
  - intros m Hm. apply add_all_names in Hm as [Hm|Hm]; [apply (inv_inbox1 _ I), Hm|apply H2, Hm].
  - destruct (inv_inbox _ I) as (r & Hr & Hs). exists r. split; [|exact Hs].
    rewrite <- find_row_findr in *. apply add_all_keeps, Hr.
Qed.

Lemma in_chain n p : In p (rev (inits n)) <-> on_path p n.
Proof. rewrite <- in_rev. apply in_inits. Qed.

Lemma create_chain_inv st n : inv st -> name_ok n = true -> is_inbox n = false -> inv (create_chain st n).
Proof.
  intros I Hn Hi. rewrite create_chain_add_all. apply add_all_inv; [exact I| | |].
  - intros p Hp. apply in_chain in Hp. eapply name_ok_on_path; eauto.
  - intros p Hp Hb. apply in_chain in Hp. destruct (on_path_inbox_case n p Hn Hp Hb) as [E|E]; [exact E|].
    subst p. congruence.
  - intros p q Hp Hq. left. apply in_chain. apply in_chain in Hp. eapply on_path_trans; eauto.
Qed.

Lemma create_chain_has st n : n <> [] -> In n (names (create_chain st n)).
Proof. intros H. rewrite create_chain_add_all. apply add_all_names. right. apply in_chain, on_path_refl, H. Qed.
Lemma create_chain_adds st n : adds (abs st) (abs (create_chain st n)) (fun m => on_path m n).
Proof. rewrite create_chain_add_all. eapply adds_ext; [|apply add_all_adds]. intros m; apply in_chain. Qed.
Lemma create_chain_keeps st n m r :
  find_row st m = Some r -> find_row (create_chain st n) m = Some r.
Proof. rewrite create_chain_add_all. apply add_all_keeps. Qed.

(* a refusal leaves any state as it was, consistent or not (refused_noop): that conjunct stands outside [inv st ->] *)
Definition sim (st : state) (o : op) (res : state * result) : Prop :=
  (snd res = NO -> fst res = st) /\
  (inv st -> inv (fst res) /\ spec_step (abs st) o (snd res) (abs (fst res))).

Lemma sim_no st o : spec_step (abs st) o NO (abs st) -> sim st o (st, NO).
Proof. intros H. split; [reflexivity|]. intros I. split; [exact I|exact H]. Qed.
Lemma sim_ok st o st' : (inv st -> inv st' /\ spec_step (abs st) o OK (abs st')) -> sim st o (st', OK).
Proof. intros H. split; [discriminate|exact H]. Qed.

Lemma create_sim st n : sim st (Create n) (create st n).
Proof.
  unfold create.
  destruct (name_ok n) eqn:Hn; [|apply sim_no, S_create_no; auto].
  destruct (new_name_ok n) eqn:Hw; [|apply sim_no, S_create_no; auto]. cbn [negb].
  destruct (find_row_view st n) as [(r & Hr & Ha & _)|(Hr & Ha & _)]; rewrite Hr.
  - destruct (r_nosel r) eqn:Hs; [|apply sim_no, S_create_no; eauto 6].
    apply sim_ok; intros I.
    destruct (update_sim st n (with_nosel false) (vv_ctr st) r I (keeps_with_nosel _) Hr) as (I' & A & O).
    { intros E. destruct (not_inbox_neq _ (new_name_ok_not_inbox _ Hw) E). }
    split; [exact I'|]. apply (S_create_revive _ n (info_of r)); auto.
  - apply sim_ok; intros I. split; [apply create_chain_inv; auto using new_name_ok_not_inbox|].
    apply S_create_new; auto using create_chain_adds.
Qed.

Lemma delete_sim st n0 : sim st (Delete n0) (delete st n0).
Proof.
  unfold delete.
  destruct (name_ok n0) eqn:Hn; [|apply sim_no, S_delete_no; auto].
  destruct (is_inbox n0) eqn:Hi; [apply sim_no, S_delete_no; auto|]. cbn [negb]; cbv zeta.
  assert (Hne : canon n0 <> inbox) by (rewrite canon_not_inbox by exact Hi; apply not_inbox_neq, Hi).
  destruct (find_row_view st (canon n0)) as [(r & Hr & Ha & _)|(Hr & Ha & _)]; rewrite Hr;
    [|apply sim_no, S_delete_no; auto].
  pose proof (has_kids_inferiors st (canon n0)) as K.
  assert (R : r_nosel r = true -> has_kids st (canon n0) = true \/ r_sub r = true -> sim st (Delete n0) (st, NO)).
  { intros Hs Hd. apply sim_no, S_delete_no. do 3 right. exists (info_of r).
    split; [exact Ha|]. split; [exact Hs|]. destruct Hd as [Hd|Hd]; [left; apply K, Hd|right; exact Hd]. }
  destruct (r_nosel r && has_kids st (canon n0)) eqn:H1; [apply andb_true_iff in H1 as [Hs Hk]; auto|].
  destruct (r_nosel r && r_sub r) eqn:H2; [apply andb_true_iff in H2 as [Hs Hk]; auto|].
  destruct (has_kids st (canon n0) || r_sub r) eqn:Hk; apply sim_ok; intros I.
  - destruct (update_sim st (canon n0) (deleted_row (vv_ctr st + 1)) (vv_ctr st + 1) r I (keeps_deleted _) Hr)
      as (I' & A & O); [contradiction|].
    split; [exact I'|]. apply (S_delete_kept _ n0 (info_of r) (info_of (deleted_row (vv_ctr st + 1) r))); auto.
    + cbn. destruct (r_nosel r); [|reflexivity]. cbn in H1, H2. rewrite H1, H2 in Hk. discriminate.
    + apply orb_true_iff in Hk as [Hk|Hk]; [left; apply K, Hk|right; exact Hk].
  - apply orb_false_iff in Hk as [Hk Hs].
    destruct (remove_sim st (canon n0) I Hk Hne) as (I' & A & O).
    split; [exact I'|]. apply (S_delete_gone _ n0 (info_of r)); auto. rewrite <- K. congruence.
Qed.

Lemma subscribe_sim (b : bool) st n0 :
  sim st (if b then Subscribe n0 else Unsubscribe n0) (subscribe b st n0).
Proof.
  unfold subscribe.
  destruct (name_ok n0) eqn:Hn;
    [|apply sim_no; destruct b; [apply S_subscribe_no|apply S_unsubscribe_no]; auto].
  cbn [negb]; cbv zeta. destruct (find_row_view st (canon n0)) as [(r & Hr & Ha & _)|(Hr & Ha & _)]; rewrite Hr.
  - apply sim_ok; intros I.
    destruct (update_sim st (canon n0) (with_sub b) (vv_ctr st) r I (keeps_with_sub b) Hr) as (I' & A & O);
      [reflexivity|].
    split; [exact I'|]. destruct b; [eapply S_subscribe|eapply S_unsubscribe]; eauto.
  - apply sim_no; destruct b; [apply S_subscribe_no|apply S_unsubscribe_no]; auto.
Qed.

Lemma select_state st n0 : fst (select st n0) = st.
Proof.
  unfold select. destruct (name_ok n0); [|reflexivity]. cbn [negb].
  destruct (find_row st (canon n0)) as [r|]; [destruct (r_nosel r)|]; reflexivity.
Qed.
Lemma select_sim st n0 : sim st (Select n0) (select st n0).
Proof.
  unfold select. destruct (name_ok n0) eqn:Hn; [|apply sim_no, S_select_no; auto].
  cbn [negb]. destruct (find_row_view st (canon n0)) as [(r & Hr & Ha & _)|(Hr & Ha & _)]; rewrite Hr;
    [destruct (r_nosel r) eqn:Hs|].
  - apply sim_no, S_select_no; eauto 6.
  - apply sim_ok; intros I. split; [exact I|]. eapply S_select; eauto.
  - apply sim_no, S_select_no; auto.
Qed.

Lemma append_sim st n0 c f : sim st (Append n0 c f) (append st n0 c f).
Proof.
  unfold append. destruct (name_ok n0) eqn:Hn; [|apply sim_no, S_append_no; auto].
  cbn [negb]; cbv zeta. destruct (find_row_view st (canon n0)) as [(r & Hr & Ha & _)|(Hr & Ha & _)]; rewrite Hr;
    [|apply sim_no, S_append_no; auto].
  destruct (r_nosel r) eqn:Hs; [apply sim_no, S_append_no; eauto 6|].
  apply sim_ok; intros I.
  destruct (update_sim st (canon n0) (append_row c f) (vv_ctr st) r I (keeps_append c f) Hr) as (I' & A & O);
    [reflexivity|].
  split; [exact I'|]. apply (S_append _ n0 (info_of r)); auto.
Qed.

Lemma special_names_ok : Forall (fun n => name_ok n = true /\ new_name_ok n = true /\ exists c, n = [c]) special_names.
Proof. repeat constructor; eexists; reflexivity. Qed.

Lemma ensure_special_add st n : name_ok n = true -> new_name_ok n = true -> (exists c, n = [c]) ->
  ensure_special st n = add_if_missing st n.
Proof.
  intros H1 H2 (c & ->). unfold ensure_special, add_if_missing, create. rewrite H1, H2. cbn [negb].
  destruct (find_row st [c]) eqn:E; [reflexivity|]. cbn [fst]. unfold create_chain. cbn [inits map rev app fold_left].
  unfold add_if_missing. rewrite E. reflexivity.
Qed.

Lemma restart_add_all st : restart st = add_all st special_names.
Proof.
  unfold restart, add_all. pose proof special_names_ok as H. revert st.
  induction H as [|n L (H1 & H2 & H3) _ IH]; intros st; cbn [fold_left]; [reflexivity|].
  rewrite ensure_special_add by assumption. apply IH.
Qed.

Lemma restart_inv st : inv st -> inv (restart st).
Proof.
  intros I. rewrite restart_add_all. pose proof special_names_ok as H. rewrite Forall_forall in H.
  apply add_all_inv; auto.
  - intros p Hp. apply H, Hp.
  - intros p Hp Hi. destruct (H p Hp) as (_ & H2 & _). apply new_name_ok_not_inbox in H2. congruence.
  - intros p q Hp Hq. left. destruct (H p Hp) as (_ & _ & c & ->). rewrite (on_path_single _ _ Hq). exact Hp.
Qed.

Lemma restart_adds st : adds (abs st) (abs (restart st)) (fun m => In m special_names).
Proof. rewrite restart_add_all. apply add_all_adds. Qed.

(* where RENAME o n sends the name m *)
Definition rn (o n m : name) : name := if is_prefix o m then n ++ skipn (List.length o) m else m.
Definition rename_row (o n : name) (r : row) : row :=
  if is_prefix o (r_name r) then with_name (n ++ skipn (List.length o) (r_name r)) r else r.

Lemma rename_rows_map o n l : rename_rows o n l = map (rename_row o n) l.
Proof. reflexivity. Qed.

Lemma rn_cases o n m : (exists s, m = o ++ s /\ rn o n m = n ++ s) \/ ((forall s, m <> o ++ s) /\ rn o n m = m).
Proof.
  unfold rn. destruct (is_prefix o m) eqn:E.
  - apply is_prefix_spec in E as (s & ->). left; exists s. rewrite skipn_app, skipn_all, Nat.sub_diag. auto.
  - right. split; [|reflexivity]. intros s ->. rewrite (proj2 (is_prefix_spec o (o ++ s))) in E by eauto. discriminate E.
Qed.
Lemma rn_moved o n s : rn o n (o ++ s) = n ++ s.
Proof.
  destruct (rn_cases o n (o ++ s)) as [(s' & E & ->)|(U & _)]; [|destruct (U s eq_refl)].
  apply app_inv_head in E as <-. reflexivity.
Qed.
Lemma rn_unmoved o n m : (forall s, m <> o ++ s) -> rn o n m = m.
Proof. intros U. destruct (rn_cases o n m) as [(s & E & _)|(_ & E)]; [destruct (U s E)|exact E]. Qed.
Lemma rn_inj o n a b : (forall s, a <> n ++ s) -> (forall s, b <> n ++ s) -> rn o n a = rn o n b -> a = b.
Proof.
  intros Ha Hb E.
  destruct (rn_cases o n a) as [(sa & -> & Ea)|(_ & Ea)], (rn_cases o n b) as [(sb & -> & Eb)|(_ & Eb)];
    rewrite Ea, Eb in E.
  - apply app_inv_head in E. congruence.
  - exfalso. apply (Hb sa). symmetry; exact E.
  - exfalso. apply (Ha sb). exact E.
  - exact E.
Qed.

Lemma in_map_rn o n ns m' : In m' (map (rn o n) ns) <->
  (exists s, m' = n ++ s /\ In (o ++ s) ns) \/ (In m' ns /\ forall s, m' <> o ++ s).
Proof.
  rewrite in_map_iff. split.
  - intros (m & <- & Hm). destruct (rn_cases o n m) as [(s & -> & ->)|(U & ->)]; [left; eauto|right; auto].
  - intros [(s & -> & Hm)|(Hm & U)]; [exists (o ++ s); split; [apply rn_moved|exact Hm]|].
    exists m'; split; [apply rn_unmoved, U|exact Hm].
Qed.

Lemma rename_row_name o n r : r_name (rename_row o n r) = rn o n (r_name r).
Proof. unfold rename_row, rn. destruct (is_prefix o (r_name r)); reflexivity. Qed.
Lemma with_name_same r : with_name (r_name r) r = r.
Proof. destruct r; reflexivity. Qed.
Lemma info_of_with_name x r : info_of (with_name x r) = info_of r.
Proof. reflexivity. Qed.
Lemma info_of_rename_row o n r : info_of (rename_row o n r) = info_of r.
Proof. unfold rename_row. destruct (is_prefix o (r_name r)); [apply info_of_with_name|reflexivity]. Qed.

Lemma rename_rows_names o n l : lnames (rename_rows o n l) = map (rn o n) (lnames l).
Proof.
  unfold lnames. rewrite rename_rows_map, !map_map. apply map_ext, rename_row_name.
Qed.
Lemma findr_rename_rows o n l m :
  (forall a, In a (lnames l) -> forall s, a <> n ++ s) -> (forall s, m <> n ++ s) ->
  findr (rename_rows o n l) (rn o n m) = option_map (rename_row o n) (findr l m).
Proof.
  intros Hl Hm. rewrite rename_rows_map. apply (findr_map (rename_row o n) (rn o n)). intros r Hr. rewrite rename_row_name.
  destruct (neqb_spec (r_name r) m) as [->|Hne]; [apply neqb_refl|].
  destruct (neqb_spec (rn o n (r_name r)) (rn o n m)) as [E|_]; [|reflexivity].
  exfalso; apply Hne. apply rn_inj in E; auto. apply Hl, in_map, Hr.
Qed.

Lemma not_under_missing st a n s : inv st -> In a (names st) -> ~ In n (names st) -> n <> [] -> a <> n ++ s.
Proof. intros I Ha Hn Hn0 ->. apply Hn, (inv_closed _ I (n ++ s) n Ha). split; [exact Hn0|eauto]. Qed.

Lemma apart st o n : inv st -> In o (names st) -> ~ In n (names st) -> n <> [] -> ~ below o n ->
  forall s s', o ++ s <> n ++ s'.
Proof.
  intros I Ho Hn Hn0 Hb s s' E. apply app_eq_app in E as (l & [[E _]|[E _]]).
  - exact (not_under_missing st o n l I Ho Hn Hn0 E).
  - apply Hb, (below_app o l n E). intros ->; contradiction.
Qed.

Lemma on_path_removelast q n : on_path q n -> q <> n -> on_path q (removelast n).
Proof.
  intros (Hq & s & ->) Hne. split; [exact Hq|].
  destruct s as [|x s]; [rewrite app_nil_r in Hne; contradiction|].
  exists (removelast (x :: s)). apply removelast_app. discriminate.
Qed.
Lemma removelast_on_path n : removelast n <> [] -> on_path (removelast n) n.
Proof.
  intros H. split; [exact H|]. destruct n as [|x n]; [contradiction|].
  exists [last (x :: n) x]. apply app_removelast_last. discriminate.
Qed.

Lemma not_on_path_removelast n : n <> [] -> ~ on_path n (removelast n).
Proof.
  intros H0 (_ & s & E). pose proof (app_removelast_last (A := comp) [] H0) as L. rewrite E in L.
  apply (f_equal (@List.length _)) in L. rewrite !app_length in L. cbn in L. lia.
Qed.
Lemma on_path_not_moved o n s : ~ below o n -> o <> n -> ~ on_path (o ++ s) (removelast n).
Proof.
  intros Hb Hne H.
  assert (Hp : removelast n <> []) by (intros E; rewrite E in H; exact (on_path_nil _ H)).
  destruct (on_path_trans _ _ _ H (removelast_on_path n Hp)) as (_ & t & E).
  rewrite <- app_assoc in E. exact (Hb (below_app o (s ++ t) n E Hne)).
Qed.

Section RenameRows.
Variables (st : state) (o n : name).
Hypotheses (I : inv st) (Ho : In o (names st)) (Hn : name_ok n = true) (Hnn : ~ In n (names st))
  (Hbel : ~ below o n).
Let st' := {| rows := rename_rows o n (rows st); vv_ctr := vv_ctr st |}.
Let Hn0 : n <> [] := name_ok_nonempty n Hn.

Lemma renamed_names m : In m (names st') <->
  (exists s, m = n ++ s /\ In (o ++ s) (names st)) \/ (In m (names st) /\ forall s, m <> o ++ s).
Proof. unfold names, st'; cbn [rows]. rewrite rename_rows_names. apply in_map_rn. Qed.

Lemma renamed_find_row m : (forall s, m <> n ++ s) ->
  find_row st' (rn o n m) = option_map (rename_row o n) (find_row st m).
Proof. apply findr_rename_rows. intros a Ha s. exact (not_under_missing st a n s I Ha Hnn Hn0). Qed.

Lemma renamed_abs m : (forall s, m <> n ++ s) -> abs st' (rn o n m) = abs st m.
Proof.
  intros Hm. unfold abs. rewrite renamed_find_row by exact Hm.
  destruct (find_row st m); [cbn; rewrite info_of_rename_row|]; reflexivity.
Qed.

Lemma renamed_tree :
  (forall s, abs st' (n ++ s) = abs st (o ++ s)) /\
  (forall s, (forall s', o ++ s <> n ++ s') -> abs st' (o ++ s) = None) /\
  (forall m, (forall s, m <> n ++ s) -> (forall s, m <> o ++ s) -> abs st' m = abs st m).
Proof.
  split; [|split].
  - intros s. rewrite <- (rn_moved o n s). apply renamed_abs, (apart st); auto.
  - intros s H. apply abs_none. rewrite renamed_names.
    intros [(s' & E & _)|(_ & U)]; [apply (H s'), E|apply (U s); reflexivity].
  - intros m H1 H2. rewrite <- (rn_unmoved o n m H2) at 1. apply renamed_abs, H1.
Qed.

Hypotheses (Hw : new_name_ok n = true) (Hio : is_inbox o = false)
  (Hpar : removelast n = [] \/ In (removelast n) (names st)).

Lemma renamed_closed : closed (names st').
Proof.
  intros m' q Hm' Hq. apply renamed_names. apply renamed_names in Hm' as [(s & -> & Hm)|(Hm & Um)].
  - destruct (on_path_app _ _ _ Hq) as [Hqn|(l & t & -> & ->)].
    + (* q is n, or above n: there the parent of n vouches for it, and nothing moves *)
      destruct (name_dec q n) as [->|Hne]; [left; exists []; rewrite !app_nil_r; auto|right].
      apply on_path_removelast in Hqn as Hqp; [|exact Hne].
      destruct Hpar as [Hp|Hp]; [rewrite Hp in Hqp; destruct (on_path_nil _ Hqp)|].
      split; [apply (inv_closed _ I _ q Hp Hqp)|].
      intros u ->. destruct Hqn as (_ & t & E).
      apply (apart st o n I Ho Hnn Hn0 Hbel (u ++ t) []).
      rewrite app_nil_r, E. apply app_assoc.
    + (* q = n ++ l comes from o ++ l *)
      left. exists l. split; [reflexivity|]. apply (inv_closed _ I _ (o ++ l) Hm).
      split; [|exists t; apply app_assoc]. intros E. apply app_eq_nil in E as [-> _]. discriminate (inv_ok _ I _ Ho).
  - right. split; [apply (inv_closed _ I m' q Hm Hq)|].
    intros u ->. destruct Hq as (_ & t & ->). apply (Um (u ++ t)). symmetry; apply app_assoc.
Qed.

Lemma renamed_inv : inv st'.
Proof.
  assert (Ho0 : o <> []) by apply name_ok_nonempty, (inv_ok _ I), Ho.
  constructor.
  - unfold names, st'; cbn [rows]. rewrite rename_rows_names. apply NoDup_map_on; [apply I|].
    intros a b Ha Hb. apply rn_inj; intros s; apply (not_under_missing st); assumption.
  - exact renamed_closed.
  - intros m' Hm'. apply renamed_names in Hm' as [(s & -> & Hm)|(Hm & _)]; [|apply (inv_ok _ I), Hm].
    apply (name_ok_swap o); auto. apply (inv_ok _ I), Hm.
  - intros m' Hm' Hb. apply renamed_names in Hm' as [(s & -> & Hm)|(Hm & _)]; [|apply (inv_inbox1 _ I), Hb; exact Hm].
    (* n ++ s has one level only if it is n, and n is no spelling of INBOX *)
    exfalso. apply new_name_ok_not_inbox in Hw. destruct (is_inbox_single _ Hb) as (c & Ec).
    destruct n as [|x [|y n']]; [discriminate Hn| |discriminate Ec].
    destruct s; [|discriminate Ec]. rewrite app_nil_r in Hb. congruence.
  - destruct (inv_inbox _ I) as (r & Hr & Hs). rewrite <- find_row_findr in *.
    assert (Hu : forall s, inbox <> o ++ s).
    { intros s E. destruct o as [|x o']; [contradiction|]. injection E as <- E. destruct o'; [|discriminate E].
      discriminate Hio. }
    exists (rename_row o n r). rewrite <- (rn_unmoved o n inbox Hu) at 1.
    rewrite renamed_find_row, Hr by (intros s; apply (not_under_missing st); eauto using findr_in_names). split; [reflexivity|].
    unfold rename_row. destruct (is_prefix o (r_name r)); exact Hs.
Qed.
End RenameRows.

Lemma name_ok_parent n : name_ok n = true -> removelast n <> [] -> name_ok (removelast n) = true.
Proof. intros Hn Hp. exact (name_ok_on_path n _ Hn (removelast_on_path n Hp)). Qed.

(* the conclusions are the premises of the reference model's rules for RENAME about the parent *)
Lemma ensure_parent_no st n st1 : name_ok n = true -> ensure_parent st n = (st1, NO) ->
  removelast n <> [] /\ abs st (removelast n) = None /\ new_name_ok (removelast n) = false.
Proof.
  intros Hn. unfold ensure_parent. destruct (removelast n) as [|c p'] eqn:Ep; [discriminate|]. rewrite <- Ep.
  assert (Hp0 : removelast n <> []) by (rewrite Ep; discriminate).
  destruct (find_row_view st (removelast n)) as [(r & Hr & _)|(Hr & Ha & _)]; rewrite Hr; [discriminate|].
  unfold create. rewrite (name_ok_parent n Hn Hp0), Hr. cbn [negb].
  destruct (new_name_ok (removelast n)); [discriminate|]. auto.
Qed.

Lemma ensure_parent_ok st n st1 : name_ok n = true -> ensure_parent st n = (st1, OK) -> inv st ->
  inv st1 /\ adds (abs st) (abs st1) (fun m => on_path m (removelast n)) /\
  (removelast n = [] \/ In (removelast n) (names st1)) /\
  (removelast n = [] \/ abs st (removelast n) <> None \/ new_name_ok (removelast n) = true).
Proof.
  intros Hn. unfold ensure_parent. destruct (removelast n) as [|c p'] eqn:Ep.
  - intros [= <-] I. split; [exact I|split; [|split; auto]].
    apply adds_refl. intros m Hm. destruct (on_path_nil _ Hm).
  - rewrite <- Ep. assert (Hp0 : removelast n <> []) by (rewrite Ep; discriminate).
    destruct (find_row_view st (removelast n)) as [(r & Hr & Ha & Hi)|(Hr & Ha & _)]; rewrite Hr.
    + intros [= <-] I. split; [exact I|split; [|split; [right; exact Hi|right; left; apply abs_some, Hi]]].
      apply adds_refl. intros m Hm. apply abs_some. apply (inv_closed _ I _ m Hi Hm).
    + pose proof (name_ok_parent n Hn Hp0) as Hok. unfold create. rewrite Hok, Hr. cbn [negb].
      destruct (new_name_ok (removelast n)) eqn:Hw; [|discriminate]. intros [= <-] I.
      split; [|split; [|split; [right|right; right; reflexivity]]].
      * apply create_chain_inv; auto. apply new_name_ok_not_inbox, Hw.
      * apply create_chain_adds.
      * apply create_chain_has, Hp0.
Qed.

Lemma rename_sim st o0 n : sim st (Rename o0 n) (rename st o0 n).
Proof.
  unfold rename.
  destruct (name_ok o0) eqn:Ho; cbn [negb orb]; [|apply sim_no, S_rename_no; auto].
  destruct (name_ok n) eqn:Hn; cbn [negb]; [|apply sim_no, S_rename_no; auto].
  cbv zeta.
  destruct (find_row_view st (canon o0)) as [(ro & Hro & Hao & Hoin)|(Hro & Hao & _)]; rewrite Hro;
    [|apply sim_no, S_rename_no; auto].
  destruct (find_row_view st n) as [(rx & Hrn & Han & _)|(Hrn & Han & Hnn)]; rewrite Hrn.
  { apply sim_no, S_rename_no. do 3 right; left. rewrite Han; discriminate. }
  destruct (is_inbox o0) eqn:Hio.
  - (* RENAME INBOX: the chain of n, then the messages go from the inbox row to the new row *)
    rewrite (canon_inbox _ Hio) in *. unfold create. rewrite Hn. cbn [negb].
    destruct (new_name_ok n) eqn:Hw; cbn [negb]; [|apply sim_no, S_rename_no; auto 7].
    rewrite Hrn. apply sim_ok; intros I.
    assert (Hne : n <> inbox) by (apply not_inbox_neq, new_name_ok_not_inbox, Hw).
    set (st1 := create_chain st n).
    assert (I1 : inv st1) by (apply create_chain_inv; auto using new_name_ok_not_inbox).
    destruct (find_row_view st1 n) as [(r1 & Hr1 & Ha1 & _)|(_ & _ & Hx)].
    2:{ destruct Hx. apply create_chain_has, name_ok_nonempty, Hn. }
    pose proof (create_chain_keeps st n inbox ro Hro) as Hib1. fold st1 in Hib1.
    set (g := with_msgs (1 + Z.of_nat (List.length (r_msgs ro))) (renumber 1 (r_msgs ro))).
    destruct (update_sim st1 n g (vv_ctr st1) r1 I1 (keeps_with_msgs _ _) Hr1) as (I2 & A2 & O2); [reflexivity|].
    set (st2 := {| rows := update n g (rows st1); vv_ctr := vv_ctr st1 |}) in *.
    assert (Hib2 : find_row st2 inbox = Some ro).
    { unfold st2. rewrite find_row_update, Hib1 by apply keeps_with_msgs.
      cbn [option_map]. destruct (neqb_spec inbox n); [congruence|reflexivity]. }
    destruct (update_sim st2 inbox (with_msgs (r_nuid ro) []) (vv_ctr st1) ro I2 (keeps_with_msgs _ _) Hib2)
      as (I3 & A3 & O3); [reflexivity|].
    split; [exact I3|].
    apply (S_rename_inbox _ o0 n (abs st1) _ (info_of ro) (info_of r1)); auto.
    + apply create_chain_adds.
    + rewrite O3 by exact Hne. exact A2.
    + intros m H1 H2. rewrite O3, O2; auto.
  - rewrite (canon_not_inbox _ Hio) in *.
    destruct (new_name_ok n) eqn:Hw; cbn [negb]; [|apply sim_no, S_rename_no; auto 7].
    destruct (belowb o0 n) eqn:Hb.
    { apply sim_no, S_rename_no. do 5 right.
      split; [exact Hio|left]. rewrite (canon_not_inbox _ Hio). apply belowb_spec, Hb. }
    assert (Hbel : ~ below o0 n) by (rewrite <- belowb_spec; congruence).
    assert (Hon : o0 <> n) by (intros ->; contradiction).
    destruct (ensure_parent st n) as [st1 [|]] eqn:E.
    + apply sim_ok; intros I. destruct (ensure_parent_ok st n st1 Hn E I) as (I1 & A & Hp & Hpok).
      assert (Ho1 : In o0 (names st1)) by (apply abs_some, (adds_dom _ _ _ _ A); left; apply abs_some, Hoin).
      assert (Hn1 : ~ In n (names st1)).
      { rewrite <- abs_some, (adds_dom _ _ _ _ A), abs_some. intros [H|H]; [contradiction|].
        apply (not_on_path_removelast n (name_ok_nonempty _ Hn) H). }
      destruct (renamed_tree st1 o0 n I1 Ho1 Hn Hn1 Hbel) as (C1 & C2 & C3).
      split; [exact (renamed_inv st1 o0 n I1 Ho1 Hn Hn1 Hbel Hw Hio Hp)|].
      apply (S_rename _ o0 n (abs st1)); auto.
      * apply abs_some, Hoin.
      * intros s. rewrite C1. destruct (A (o0 ++ s)) as [(H & _)|(_ & ->)]; [|reflexivity].
        exfalso. eapply on_path_not_moved; eauto.
    + apply sim_no, S_rename_no. do 5 right. split; [exact Hio|right]. exact (ensure_parent_no st n st1 Hn E).
Qed.

Lemma step_sim st o : sim st o (step st o).
Proof.
  destruct o; cbn [step].
  - apply create_sim.
  - apply delete_sim.
  - apply rename_sim.
  - apply (subscribe_sim true).
  - apply (subscribe_sim false).
  - apply append_sim.
  - apply select_sim.
  - apply sim_ok; intros I. split; [apply restart_inv, I|apply S_restart, restart_adds].
Qed.

Lemma run_cons st o os :
  run st (o :: os) = (fst (run (fst (step st o)) os), snd (step st o) :: snd (run (fst (step st o)) os)).
Proof. cbn [run]. destruct (step st o) as [st1 r]. cbn [fst snd]. destruct (run st1 os); reflexivity. Qed.

Lemma run_sim os : forall st, inv st ->
  inv (fst (run st os)) /\ spec_run (abs st) os (snd (run st os)) (abs (fst (run st os))).
Proof.
  induction os as [|o os IH]; intros st I; [split; [exact I|constructor]|]. rewrite run_cons.
  destruct (proj2 (step_sim st o) I) as (I1 & S). destruct (IH _ I1) as (I2 & R).
  split; [exact I2|econstructor; eassumption].
Qed.

(* a new mail directory before find_all_folders has run *)
Definition base : state := {| rows := [new_row inbox 1]; vv_ctr := 1 |}.

Lemma init_restart_base : init = restart base.
Proof. reflexivity. Qed.

Lemma inv_base : inv base.
Proof.
  constructor; cbn.
  - repeat constructor. intros [].
  - intros m p [<-|[]] Hp. left. symmetry. apply (on_path_single _ _ Hp).
  - intros m [<-|[]]. reflexivity.
  - intros m [<-|[]] _. reflexivity.
  - eexists; split; reflexivity.
Qed.

Lemma inv_init : inv init.
Proof. rewrite init_restart_base. apply restart_inv, inv_base. Qed.

Lemma special_not_inbox m : In m special_names -> m <> inbox.
Proof.
  intros H. pose proof special_names_ok as F. rewrite Forall_forall in F. destruct (F m H) as (_ & Hw & _).
  apply not_inbox_neq, new_name_ok_not_inbox, Hw.
Qed.

(* the first row is itself a row added because it is missing, to the empty table *)
Lemma initial_init : initial (abs init).
Proof.
  unfold initial. rewrite init_restart_base. eapply adds_ext;
    [|exact (adds_trans _ _ _ _ _ (add_if_missing_adds {| rows := []; vv_ctr := 0 |} inbox) (restart_adds base))].
  intros m; cbn beta. split; intros [H|H]; auto.
Qed.

Theorem reachable_inv : forall os, inv (fst (run init os)).
Proof. intros os. apply run_sim, inv_init. Qed.

Theorem run_refines : forall os,
  initial (abs init) /\ spec_run (abs init) os (snd (run init os)) (abs (fst (run init os))).
Proof. intros os. split; [apply initial_init|apply run_sim, inv_init]. Qed.

Lemma abs_row st r : inv st -> In r (rows st) -> abs st (r_name r) = Some (info_of r).
Proof. intros I Hr. rewrite abs_findr, (findr_in _ _ (inv_nodup _ I) Hr). reflexivity. Qed.
Lemma abs_some_row st n i : abs st n = Some i -> exists r, In r (rows st) /\ r_name r = n /\ i = info_of r.
Proof.
  rewrite abs_findr. destruct (findr (rows st) n) as [r|] eqn:E; [|discriminate].
  cbn. intros H; injection H as <-. apply findr_some in E as [H1 H2]. eauto.
Qed.

Lemma comp_ok_INBOX : Forall comp_ok [INBOX].
Proof.
  constructor; [|constructor]. split; [discriminate|]. cbv. intuition discriminate.
Qed.
Lemma flat_INBOX n : Forall comp_ok n -> flat n = INBOX -> is_inbox n = true.
Proof. intros C E. rewrite (flat_inj n [INBOX] C comp_ok_INBOX E). reflexivity. Qed.

Lemma shown_inj a b : name_ok a = true -> name_ok b = true ->
  (is_inbox a = true -> a = inbox) -> (is_inbox b = true -> b = inbox) -> shown a = shown b -> a = b.
Proof.
  intros Ha Hb Ia Ib E. unfold shown in E.
  apply name_ok_comps in Ha as Ca. apply name_ok_comps in Hb as Cb.
  destruct (is_inbox a) eqn:Ea, (is_inbox b) eqn:Eb.
  - rewrite Ia, Ib; reflexivity.
  - rewrite (flat_INBOX b) in Eb by auto. discriminate Eb.
  - rewrite (flat_INBOX a) in Ea by auto. discriminate Ea.
  - apply flat_inj; auto.
Qed.

Lemma row_matches_spec ips r :
  row_matches ips r = true <-> exists ip, In ip ips /\ name_matches ip (r_name r).
Proof.
  unfold row_matches, name_matches. destruct (is_inbox (r_name r)) eqn:Ib; rewrite existsb_exists.
  - split; intros (ip & H1 & H2); exists ip; (split; [exact H1|]); apply glob_inbox_correct; exact H2.
  - split; intros (ip & H1 & H2); exists ip; (split; [exact H1|]); apply glob_correct; exact H2.
Qed.

Definition is_probe (q : query) : Prop := q_ref q = [] /\ q_pats q = [[]].
Lemma list_cmd_answers st q : ~ is_probe q -> list_cmd st q = map (mk_entry st q) (selected st q).
Proof.
  unfold is_probe, list_cmd. intros H. destruct (q_ref q) as [|c r]; [|reflexivity].
  destruct (q_pats q) as [|[|x p] [|y l]]; try reflexivity. exfalso; apply H; auto.
Qed.

Lemma is_probe_plain lsub ref pat : is_probe (plain lsub ref pat) <-> ref = [] /\ pat = [].
Proof. unfold is_probe, plain; cbn. split; intros [H1 H2]; split; congruence. Qed.

Lemma selected_plain st lsub ref pat :
  selected st (plain lsub ref pat) =
  map (fun r => (r, false)) (filter (fun r => row_matches [ref ++ pat] r && implb lsub (r_sub r)) (rows st)).
Proof.
  unfold selected, plain, q_ips; cbn. f_equal. apply filter_ext. intros r. rewrite orb_false_r. reflexivity.
Qed.

Theorem list_exact st lsub ref pat : inv st -> ~ (ref = [] /\ pat = []) ->
  let out := list_cmd st (plain lsub ref pat) in
  NoDup (map e_name out) /\
  (forall d, In d (map e_name out) <-> spec_listed (abs st) lsub [ref ++ pat] d).
Proof.
  intros I Hp out. unfold out. rewrite list_cmd_answers by (rewrite is_probe_plain; exact Hp).
  rewrite selected_plain, !map_map. cbn [mk_entry e_name].
  set (P := fun r => row_matches [ref ++ pat] r && implb lsub (r_sub r)).
  split.
  - apply NoDup_map_on; [apply NoDup_filter, rows_nodup, I|].
    intros a b Ha Hb E. apply filter_In in Ha as [Ha _]. apply filter_In in Hb as [Hb _].
    apply (row_name_inj st); auto.
    apply shown_inj; auto; (apply (inv_ok _ I) || apply (inv_inbox1 _ I)); apply in_map; assumption.
  - intros d. rewrite in_map_iff. unfold spec_listed. split.
    + intros (r & <- & Hr). apply filter_In in Hr as [Hr HP]. unfold P in HP. apply andb_true_iff in HP as [H1 H2].
      exists (r_name r), (info_of r). split; [apply abs_row; auto|]. split; [reflexivity|]. split.
      * intros ->. exact H2.
      * apply row_matches_spec; auto.
    + intros (n & i & Hn & <- & Hs & Hm). apply abs_some_row in Hn as (r & Hr & <- & ->).
      exists r. split; [reflexivity|]. apply filter_In. split; [exact Hr|]. unfold P. apply andb_true_iff. split.
      * apply row_matches_spec; auto.
      * destruct lsub; [apply Hs; reflexivity|reflexivity].
Qed.

Lemma selected_rows st q rc : In rc (selected st q) -> In (fst rc) (rows st).
Proof.
  unfold selected. intros H.
  assert (G : forall l : list (row * bool), In rc (if q_sel_special q then filter (fun rc => has_special (fst rc)) l else l) -> In rc l).
  { intros l. destruct (q_sel_special q); [intros Hf; apply filter_In in Hf as [Hf _]; exact Hf|auto]. }
  apply G in H. destruct (q_sel_rec q).
  - apply in_app_or in H as [H|H]; apply in_map_iff in H as (r & <- & Hr); cbn [fst].
    + apply filter_In in Hr as [Hr _]. apply filter_In in Hr as [Hr _]. exact Hr.
    + apply filter_In in Hr as [Hr _]. exact Hr.
  - apply in_map_iff in H as (r & <- & Hr). cbn [fst]. apply filter_In in Hr as [Hr _]. exact Hr.
Qed.

Definition has_attr (st : state) (q : query) (r : row) (a : attr) : Prop :=
  match a with
  | Noselect => r_nosel r = true
  | Special s => In s (r_spec r)
  | HasChildren => has_kids st (r_name r) = true
  | HasNoChildren => has_kids st (r_name r) = false
  | Subscribed => r_sub r = true /\ (q_sel_sub q || q_ret_sub q) = true
  | NonExistent => r_sub r = true /\ q_sel_sub q = true /\ r_nosel r = true
  end.

Lemma in_row_attrs st q r a : In a (row_attrs st q r) <-> has_attr st q r a.
Proof.
  unfold row_attrs. rewrite !in_app_iff, in_map_iff. split.
  - intros [H|[H|[H|H]]].
    + destruct (r_nosel r) eqn:E; [destruct H as [<-|[]]; exact E|contradiction].
    + destruct H as (s & <- & Hs). exact Hs.
    + destruct (has_kids st (r_name r)) eqn:E; destruct H as [<-|[]]; exact E.
    + destruct (r_sub r) eqn:E; [|contradiction]. destruct (q_sel_sub q) eqn:E1.
      * destruct H as [<-|H]; [cbn; rewrite E1; auto|]. destruct (r_nosel r) eqn:E2; [|contradiction].
        destruct H as [<-|[]]. cbn; auto.
      * destruct (q_ret_sub q) eqn:E2; [|contradiction]. destruct H as [<-|[]]. cbn; rewrite E1, E2; auto.
  - destruct a; cbn [has_attr].
    + intros ->. left; left; reflexivity.
    + intros ->. right; right; left. left; reflexivity.
    + intros ->. right; right; left. left; reflexivity.
    + intros (-> & H). do 3 right. destruct (q_sel_sub q); [left; reflexivity|].
      cbn in H; rewrite H. left; reflexivity.
    + intros (-> & -> & ->). do 3 right. right; left; reflexivity.
    + intros H. right; left. exists s; auto.
Qed.

Theorem list_attrs st q e : inv st -> ~ is_probe q -> In e (list_cmd st q) ->
  exists n i, abs st n = Some i /\ e_name e = shown n /\
    (In HasChildren (e_attrs e) <-> has_inferiors (abs st) n) /\
    (In HasNoChildren (e_attrs e) <-> ~ has_inferiors (abs st) n) /\
    (In Noselect (e_attrs e) <-> i_placeholder i = true) /\
    (In Subscribed (e_attrs e) -> i_subscribed i = true).
Proof.
  intros I Hp He. rewrite list_cmd_answers in He by exact Hp. apply in_map_iff in He as ([r c] & <- & Hrc).
  apply selected_rows in Hrc. cbn [fst] in Hrc. exists (r_name r), (info_of r).
  split; [apply abs_row; auto|]. split; [reflexivity|]. cbn [mk_entry e_attrs].
  rewrite <- has_kids_inferiors, not_true_iff_false. split; [|split; [|split]].
  - exact (in_row_attrs st q r HasChildren).
  - exact (in_row_attrs st q r HasNoChildren).
  - exact (in_row_attrs st q r Noselect).
  - intros H. apply (in_row_attrs st q r Subscribed) in H. apply H.
Qed.

Lemma spec_rename_inversion T o n T' : spec_step T (Rename o n) OK T' -> is_inbox o = false ->
  name_ok n = true /\ T o <> None /\ T n = None /\ ~ below o n /\
  (forall s, T' (n ++ s) = T (o ++ s)) /\ (forall s, (forall s', o ++ s <> n ++ s') -> T' (o ++ s) = None).
Proof. intros H Hi. inversion H; subst; [auto 10|congruence]. Qed.

Theorem rename_subtree st o n st' : inv st -> is_inbox o = false -> rename st o n = (st', OK) ->
  (forall s, abs st' (n ++ s) = abs st (o ++ s)) /\ (forall s, abs st' (o ++ s) = None).
Proof.
  intros I Hi E. pose proof (proj2 (rename_sim st o n) I) as S. rewrite E in S. destruct S as (_ & S).
  destruct (spec_rename_inversion _ _ _ _ S Hi) as (Hn & Hsome & Hnone & Hbel & C1 & C2). split; [exact C1|].
  intros s. apply C2. apply abs_none in Hnone. apply abs_some in Hsome.
  apply (apart st); auto using name_ok_nonempty.
Qed.

Theorem inbox_never_deleted st n : is_inbox n = true -> delete st n = (st, NO).
Proof. intros H. unfold delete. rewrite H. destruct (name_ok n); reflexivity. Qed.

Theorem inbox_always_there os :
  exists r, find_row (fst (run init os)) inbox = Some r /\ r_nosel r = false.
Proof. apply (inv_inbox _ (reachable_inv os)). Qed.

Theorem refused_noop st o : snd (step st o) = NO -> fst (step st o) = st.
Proof. apply step_sim. Qed.

Theorem deleted_leaf_gone st n0 st' : inv st -> delete st n0 = (st', OK) ->
  has_kids st (canon n0) = false ->
  (forall r, find_row st (canon n0) = Some r -> r_sub r = false) ->
  abs st' (canon n0) = None /\ select st' n0 = (st', NO) /\
  (forall q e, ~ is_probe q -> In e (list_cmd st' q) -> e_name e <> shown (canon n0)).
Proof.
  intros I E Hk Hs.
  pose proof (proj2 (delete_sim st n0) I) as S. rewrite E in S. destruct S as (I' & _).
  unfold delete in E. destruct (name_ok n0) eqn:Hn; [|discriminate E]. destruct (is_inbox n0) eqn:Hi; [discriminate E|].
  cbn [negb] in E; cbv zeta in E. rewrite (canon_not_inbox _ Hi) in *.
  assert (A : abs st' n0 = None).
  { destruct (find_row st n0) as [r|] eqn:Hr; [|discriminate E].
    rewrite Hk, (Hs r eq_refl), !andb_false_r in E. cbn in E. injection E as <-.
    rewrite abs_remove, neqb_refl. reflexivity. }
  split; [exact A|]. split.
  - unfold select. rewrite Hn, (canon_not_inbox _ Hi). cbn [negb]. unfold abs in A.
    destruct (find_row st' n0); [discriminate A|reflexivity].
  - intros q e Hp He Ee. destruct (list_attrs st' q e I' Hp He) as (n & i & Hni & En & _).
    assert (Hin : In n (names st')) by (apply abs_some; congruence).
    apply abs_none in A. apply A.
    (* the deleted name was a valid name, so the shown form identifies it *)
    assert (n0 = n) as ->; [|exact Hin].
    apply shown_inj; [exact Hn|apply (inv_ok _ I'), Hin|congruence|apply (inv_inbox1 _ I'), Hin|congruence].
Qed.
