(* Proofs/CodecTextP.v — the persisted text round-trips: expand_text (compact_text l) = Some l for
   every strictly ascending list of non-negative integers, and what compact_text writes is
   canonical (C12). *)
From Asimap Require Import Base.Res Base.Bytes Model.Lex Spec.Grammar Model.Codec Model.CodecText Proofs.LexP Proofs.CodecP.
From Coq Require Import Sorting.Sorted.
Open Scope Z_scope.

Lemma zins_sorted_head x l : Forall (fun y => x < y) l -> zins x l = x :: l.
Proof.
  destruct l as [|y l]; [reflexivity|]. intros H. cbn [zins].
  apply Forall_inv in H. destruct (Z.leb_spec x y); [reflexivity|lia].
Qed.
Lemma zsort_id l : StronglySorted Z.lt l -> zsort l = l.
Proof.
  induction 1 as [|x l Hs IH Hx]; [reflexivity|].
  unfold zsort in *. cbn [fold_right]. rewrite IH. apply zins_sorted_head. exact Hx.
Qed.

Lemma in_zins x l a : In a (zins x l) <-> a = x \/ In a l.
Proof.
  induction l as [|y l IH]; cbn [zins]; [|destruct (x <=? y)]; cbn [In]; try rewrite IH;
    (split; intros H; decompose [or] H; subst; auto).
Qed.
Lemma in_zsort l a : In a (zsort l) <-> In a l.
Proof.
  induction l as [|x l IH]; [reflexivity|]. unfold zsort in *. cbn [fold_right In].
  rewrite in_zins, IH. split; intros [H|H]; auto.
Qed.
Lemma zsort_Forall (P : Z -> Prop) l : Forall P l -> Forall P (zsort l).
Proof. rewrite !Forall_forall. intros H x Hx. apply H. apply in_zsort. exact Hx. Qed.

Lemma zins_ascending x l : StronglySorted Z.le l -> StronglySorted Z.le (zins x l).
Proof.
  induction 1 as [|y l Hs IH Hy]; cbn [zins]; [repeat constructor|].
  rewrite Forall_forall in Hy. destruct (Z.leb_spec x y) as [Hle|Hgt].
  - constructor; [constructor; [assumption|apply Forall_forall, Hy]|].
    constructor; [exact Hle|]. apply Forall_forall. intros a Ha. specialize (Hy a Ha). lia.
  - constructor; [exact IH|]. apply Forall_forall. intros a Ha.
    apply in_zins in Ha as [->|Ha]; [lia|apply Hy, Ha].
Qed.
Theorem zsort_ascending l : StronglySorted Z.le (zsort l).
Proof. induction l as [|x l IH]; [constructor|]. unfold zsort in *. cbn [fold_right]. apply zins_ascending. exact IH. Qed.

Definition no_sep (sep : Z) (p : list Z) : Prop := Forall (fun c => c <> sep) p.

Lemma split1_nonempty sep l : split1 sep l <> [].
Proof.
  destruct l as [|x l]; [discriminate|]. cbn [split1].
  destruct (x =? sep); [discriminate|]. destruct (split1 sep l); discriminate.
Qed.
Lemma split1_nosep sep p : no_sep sep p -> split1 sep p = [p].
Proof.
  induction 1 as [|x p Hx Hp IH]; [reflexivity|]. cbn [split1].
  destruct (Z.eqb_spec x sep) as [E|_]; [contradiction|]. rewrite IH. reflexivity.
Qed.
Lemma split1_app sep p rest : no_sep sep p -> split1 sep (p ++ sep :: rest) = p :: split1 sep rest.
Proof.
  induction 1 as [|x p Hx Hp IH]; cbn [app split1].
  - rewrite Z.eqb_refl. reflexivity.
  - destruct (Z.eqb_spec x sep) as [E|_]; [contradiction|]. rewrite IH. reflexivity.
Qed.
Lemma split1_join sep parts : parts <> [] -> Forall (no_sep sep) parts ->
  split1 sep (bytes_join [sep] parts) = parts.
Proof.
  induction parts as [|p parts IH]; [intros H; contradiction|]. intros _ Hall.
  pose proof (Forall_inv Hall) as Hp. pose proof (Forall_inv_tail Hall) as Hrest.
  destruct parts as [|q parts].
  - cbn [bytes_join]. apply split1_nosep. exact Hp.
  - change (bytes_join [sep] (p :: q :: parts)) with (p ++ [sep] ++ bytes_join [sep] (q :: parts)).
    cbn [app]. rewrite split1_app by exact Hp. rewrite IH; [reflexivity|discriminate|exact Hrest].
Qed.

Lemma digits_no_sep sep ds : is_digit sep = false -> forallb is_digit ds = true -> no_sep sep ds.
Proof.
  intros Hs Hd. apply Forall_forall. intros c Hc ->.
  rewrite (proj1 (forallb_forall _ _) Hd _ Hc) in Hs. discriminate.
Qed.
Lemma all_digits_number n : 0 <= n -> all_digits (r_number n) = true.
Proof.
  intros H. unfold all_digits. pose proof (r_number_nonempty n) as Hne.
  destruct (r_number n) eqn:E; [contradiction|]. rewrite <- E. apply r_number_digits. exact H.
Qed.
Lemma py_int_number n : 0 <= n -> py_int (r_number n) = Some n.
Proof. intros H. unfold py_int. rewrite all_digits_number, r_number_val by exact H. reflexivity. Qed.
Lemma all_digits_app_dash a b : all_digits (a ++ DASH :: b) = false.
Proof.
  unfold all_digits. destruct (a ++ DASH :: b) eqn:E; [reflexivity|]. rewrite <- E.
  rewrite forallb_app. cbn [forallb]. replace (is_digit DASH) with false by reflexivity.
  cbn [andb]. apply andb_false_r.
Qed.

Definition run_ok (r : Z * Z) : Prop := 0 <= fst r /\ fst r <= snd r.

Lemma spec_keys_as_range r : run_ok r -> spec_keys (as_range r) = Some (py_range (fst r) (snd r + 1)).
Proof.
  intros [H0 Hle]. unfold as_range. destruct (Z.eqb_spec (fst r) (snd r)) as [E|NE].
  - unfold spec_keys. rewrite all_digits_number by exact H0. rewrite r_number_val by exact H0.
    rewrite <- E. rewrite py_range_one. reflexivity.
  - unfold spec_keys. cbn [app]. rewrite all_digits_app_dash.
    rewrite split1_app by (apply digits_no_sep; [reflexivity|apply r_number_digits; exact H0]).
    rewrite split1_nosep by (apply digits_no_sep; [reflexivity|apply r_number_digits; lia]).
    rewrite !py_int_number by lia. reflexivity.
Qed.

Lemma as_range_no_comma r : run_ok r -> no_sep COMMA (as_range r).
Proof.
  intros [H0 Hle]. unfold as_range, no_sep.
  assert (Hd : forall n, 0 <= n -> Forall (fun c => c <> COMMA) (r_number n))
    by (intros n Hn; apply (digits_no_sep COMMA); [reflexivity|apply r_number_digits; exact Hn]).
  destruct (fst r =? snd r); [apply Hd; exact H0|].
  apply Forall_app. split; [apply Hd; exact H0|]. cbn [app]. constructor; [discriminate|apply Hd; lia].
Qed.

Lemma collect_runs rs : Forall run_ok rs ->
  collect (map as_range rs) = Some (flat_map (fun r => py_range (fst r) (snd r + 1)) rs).
Proof.
  induction 1 as [|r rs Hr Hrs IH]; [reflexivity|].
  cbn [map collect flat_map]. rewrite spec_keys_as_range by exact Hr. rewrite IH. reflexivity.
Qed.

Lemma compact_runs_ok l : Forall (fun x => 0 <= x) l -> Forall run_ok (compact_runs l).
Proof. exact (compact_runs_starts (fun x => 0 <= x) l). Qed.
Lemma compact_aux_nonempty l : forall start prev, compact_aux l start prev <> [].
Proof.
  induction l as [|y l IH]; intros start prev; cbn [compact_aux]; [discriminate|].
  destruct (y =? prev + 1); [apply IH|discriminate].
Qed.
Lemma compact_runs_nonempty x l : compact_runs (x :: l) <> [].
Proof. unfold compact_runs. apply compact_aux_nonempty. Qed.

Definition seq_char (c : Z) : bool := is_digit c || (c =? COMMA) || (c =? DASH).
Lemma seq_chars_number n : 0 <= n -> forallb seq_char (r_number n) = true.
Proof.
  intros H. apply (forallb_impl is_digit); [|apply r_number_digits, H].
  intros c Hc. unfold seq_char. rewrite Hc. reflexivity.
Qed.
Lemma seq_chars_range r : run_ok r -> forallb seq_char (as_range r) = true.
Proof.
  intros [H0 Hle]. unfold as_range. destruct (fst r =? snd r); [apply seq_chars_number; exact H0|].
  rewrite !forallb_app. rewrite !seq_chars_number by lia. reflexivity.
Qed.
Lemma seq_chars_join ps : Forall (fun p => forallb seq_char p = true) ps -> forallb seq_char (bytes_join [COMMA] ps) = true.
Proof.
  induction 1 as [|p ps Hp Hps IH]; [reflexivity|]. destruct ps as [|q ps]; [exact Hp|].
  change (bytes_join [COMMA] (p :: q :: ps)) with (p ++ [COMMA] ++ bytes_join [COMMA] (q :: ps)).
  rewrite !forallb_app, Hp, IH. reflexivity.
Qed.
Lemma seq_chars_runs rs : Forall run_ok rs -> forallb seq_char (bytes_join [COMMA] (map as_range rs)) = true.
Proof.
  intros H. apply seq_chars_join, Forall_map. eapply Forall_impl; [|exact H]. exact seq_chars_range.
Qed.

Lemma seq_char_not_space c : seq_char c = true -> is_space c = false.
Proof. unfold seq_char, is_space, is_digit, in_range, COMMA, DASH. lia. Qed.
Lemma not_blank s : s <> [] -> forallb seq_char s = true -> blank s = false.
Proof.
  destruct s as [|c s]; [intros H; contradiction|]. intros _ H. apply andb_prop in H as [H _].
  unfold blank. cbn [forallb]. rewrite (seq_char_not_space c H). reflexivity.
Qed.
Lemma as_range_nonempty r : as_range r <> [].
Proof.
  unfold as_range. pose proof (r_number_nonempty (fst r)) as H.
  destruct (fst r =? snd r); [exact H|]. destruct (r_number (fst r)); [contradiction|discriminate].
Qed.
Lemma join_nonempty sep p ps : p <> [] -> bytes_join sep (p :: ps) <> [].
Proof. destruct p; [intros H; contradiction|]. destruct ps; discriminate. Qed.
Lemma join_not_blank rs : rs <> [] -> Forall run_ok rs -> blank (bytes_join [COMMA] (map as_range rs)) = false.
Proof.
  intros Hne H. apply not_blank; [|apply seq_chars_runs, H].
  destruct rs as [|r rs]; [contradiction|]. apply join_nonempty, as_range_nonempty.
Qed.

Lemma expand_text_runs l : l <> [] -> Forall (fun x => 0 <= x) l ->
  expand_text (bytes_join [COMMA] (map as_range (compact_runs l))) = Some (sorted_set l).
Proof.
  intros Hne Hn. pose proof (compact_runs_ok l Hn) as Hok.
  assert (Hr : compact_runs l <> []) by (destruct l; [contradiction|apply compact_runs_nonempty]).
  unfold expand_text. rewrite join_not_blank by assumption. rewrite split1_join.
  - rewrite collect_runs by exact Hok. rewrite flat_compact. reflexivity.
  - destruct (compact_runs l); [contradiction|discriminate].
  - apply Forall_map. eapply Forall_impl; [|exact Hok]. exact as_range_no_comma.
Qed.

(* the keys in any order, repeated or not: compact_sequence sorts *)
Theorem expand_compact_text_any l : Forall (fun x => 0 <= x) l ->
  expand_text (compact_text l) = Some (sorted_set l).
Proof.
  intros Hn. unfold compact_text.
  assert (Hset : sorted_set (zsort l) = sorted_set l).
  { apply sorted_ext; try apply sorted_set_sorted. intros a. rewrite !in_sorted_set. apply in_zsort. }
  rewrite <- Hset. destruct (zsort l) eqn:E; [reflexivity|].
  rewrite <- E. apply expand_text_runs; [rewrite E; discriminate|apply zsort_Forall, Hn].
Qed.

Theorem expand_compact_text l : StronglySorted Z.lt l -> Forall (fun x => 0 <= x) l ->
  expand_text (compact_text l) = Some l.
Proof. intros Hs Hn. rewrite expand_compact_text_any by exact Hn. f_equal. apply sorted_set_id, Hs. Qed.

Theorem expand_text_sorted s l : expand_text s = Some l -> StronglySorted Z.lt l.
Proof.
  unfold expand_text. destruct (blank s); [intros H; injection H as <-; constructor|].
  destruct (collect (split1 COMMA s)) as [ks|]; [|discriminate].
  intros H; injection H as <-. apply sorted_set_sorted.
Qed.

Theorem compact_text_injective l1 l2 :
  StronglySorted Z.lt l1 -> Forall (fun x => 0 <= x) l1 ->
  StronglySorted Z.lt l2 -> Forall (fun x => 0 <= x) l2 ->
  compact_text l1 = compact_text l2 -> l1 = l2.
Proof.
  intros S1 N1 S2 N2 E. pose proof (expand_compact_text l1 S1 N1) as H1.
  rewrite E, (expand_compact_text l2 S2 N2) in H1. injection H1 as ->. reflexivity.
Qed.

Theorem compact_text_alphabet_any l : Forall (fun x => 0 <= x) l -> forallb seq_char (compact_text l) = true.
Proof.
  intros Hn. apply seq_chars_runs, compact_runs_ok, zsort_Forall, Hn.
Qed.
Theorem compact_text_alphabet l : Forall (fun x => 0 <= x) l -> StronglySorted Z.lt l ->
  forallb seq_char (compact_text l) = true.
Proof. intros Hn _. apply compact_text_alphabet_any, Hn. Qed.
