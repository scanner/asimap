(* C17 — the mailbox list follows the CREATE/DELETE/RENAME/SUBSCRIBE history.
   Statements only; proofs in Proofs/NamespaceP.v.

   Model/Namespace.v is the model of asimap's namespace code (the rows of the mailboxes table;
   CREATE / DELETE / RENAME / SUBSCRIBE / UNSUBSCRIBE / APPEND / SELECT / restart as total functions
   returning the new state and OK or NO; LIST / LSUB with the LIST-EXTENDED options).
   Spec/NsSpec.v is the reference tree of the property text: a partial map from names to
   (placeholder?, subscribed?, payload), commands as a relation, RFC 3501 wildcards as an inductive
   relation.  [run init os] is the table after the history os, [abs] the tree it stands for. *)
From Coq Require Import List Ascii String Bool ZArith.
From Asimap Require Import Spec.NsSpec Model.Glob Model.Namespace Proofs.NamespaceP.
Import ListNotations.
Open Scope Z_scope.

(* The matcher the code builds (literal / .* / [^/]*, anchored) is RFC 3501's `*` / `%` relation,
   for ALL patterns and names. *)
Theorem C17_glob_correct : forall p n, glob p n = true <-> matches p n.
Proof. exact glob_correct. Qed.
Print Assumptions C17_glob_correct.

(* INBOX is matched ignoring case: the test made for the row "inbox" succeeds exactly when the
   pattern matches some spelling of INBOX. *)
Theorem C17_inbox_any_case : forall ip,
  glob (lower ip) (la "inbox") = true <-> exists s, lower s = la "inbox" /\ matches ip s.
Proof. exact glob_inbox_correct. Qed.
Print Assumptions C17_inbox_any_case.

(* Every history of namespace commands (with APPEND, SELECT and restarts interleaved): the tagged
   results are those of the reference model and the table stands for the reference tree. *)
Theorem C17_refines_reference : forall os,
  initial (abs init) /\ spec_run (abs init) os (snd (run init os)) (abs (fst (run init os))).
Proof. exact run_refines. Qed.
Print Assumptions C17_refines_reference.

(* In every reachable table no name occurs twice, every superior name of a name is there, and
   INBOX is there under exactly one spelling. *)
Theorem C17_table_invariant : forall os, inv (fst (run init os)).
Proof. exact reachable_inv. Qed.
Print Assumptions C17_table_invariant.

(* LIST reference pattern (lsub = false) and LSUB (lsub = true), after any history, answer exactly
   the existing (subscribed) mailboxes that match reference ++ pattern, each once. *)
Theorem C17_list_exact : forall os lsub ref pat, ~ (ref = [] /\ pat = []) ->
  let st := fst (run init os) in
  let out := list_cmd st (plain lsub ref pat) in
  NoDup (map e_name out) /\
  (forall d, In d (map e_name out) <-> spec_listed (abs st) lsub [ref ++ pat] d).
Proof. exact (fun os lsub ref pat => list_exact _ lsub ref pat (reachable_inv os)). Qed.
Print Assumptions C17_list_exact.

(* Every entry of every LIST / LSUB answer (any selection and return options, any number of
   patterns), after any history, is an existing mailbox and carries \HasChildren exactly when an
   existing mailbox lies below it, \HasNoChildren otherwise, \Noselect exactly when it is a
   deleted-but-kept placeholder, \Subscribed only when it is subscribed. *)
Theorem C17_children_attr : forall os q e, ~ is_probe q ->
  let st := fst (run init os) in
  In e (list_cmd st q) ->
  exists n i, abs st n = Some i /\ e_name e = shown n /\
    (In HasChildren (e_attrs e) <-> has_inferiors (abs st) n) /\
    (In HasNoChildren (e_attrs e) <-> ~ has_inferiors (abs st) n) /\
    (In Noselect (e_attrs e) <-> i_placeholder i = true) /\
    (In Subscribed (e_attrs e) -> i_subscribed i = true).
Proof. exact (fun os q e => list_attrs _ q e (reachable_inv os)). Qed.
Print Assumptions C17_children_attr.

(* RENAME o n that is answered OK (o not INBOX), after any history: everything that was at or
   below o is at or below n with its whole record (placeholder, subscription, UIDVALIDITY, UIDNEXT,
   every message with UID and flags), and nothing is left at or below o. *)
Theorem C17_rename_subtree : forall os o n st',
  let st := fst (run init os) in
  is_inbox o = false -> rename st o n = (st', OK) ->
  (forall s, abs st' (n ++ s) = abs st (o ++ s)) /\ (forall s, abs st' (o ++ s) = None).
Proof. exact (fun os o n st' => rename_subtree _ o n st' (reachable_inv os)). Qed.
Print Assumptions C17_rename_subtree.

(* DELETE of INBOX in any spelling is refused in every state, and after every history the inbox
   exists and is selectable. *)
Theorem C17_inbox_undeletable :
  (forall st n, is_inbox n = true -> delete st n = (st, NO)) /\
  (forall os, exists r, find_row (fst (run init os)) inbox = Some r /\ r_nosel r = false).
Proof. exact (conj inbox_never_deleted inbox_always_there). Qed.
Print Assumptions C17_inbox_undeletable.

(* A command that is refused leaves the state equal, in every state. *)
Theorem C17_refused_noop : forall st o, snd (step st o) = NO -> fst (step st o) = st.
Proof. exact refused_noop. Qed.
Print Assumptions C17_refused_noop.

(* A deleted leaf (no inferiors, not subscribed) is gone: not in the tree, not selectable, in no
   LIST / LSUB answer of any form. *)
Theorem C17_deleted_leaf_gone : forall os n0 st',
  let st := fst (run init os) in
  delete st n0 = (st', OK) -> has_kids st (canon n0) = false ->
  (forall r, find_row st (canon n0) = Some r -> r_sub r = false) ->
  abs st' (canon n0) = None /\ select st' n0 = (st', NO) /\
  (forall q e, ~ is_probe q -> In e (list_cmd st' q) -> e_name e <> shown (canon n0)).
Proof. exact (fun os n0 st' => deleted_leaf_gone _ n0 st' (reachable_inv os)). Qed.
Print Assumptions C17_deleted_leaf_gone.

(* ---- non-vacuity: concrete histories exercising the hypotheses above *)
Definition ex_history : list op :=
  [Create (nm "a/b/c"); Append (nm "a/b") 1 4; Append (nm "a/b") 2 1; Subscribe (nm "a/b/c");
   Delete (nm "a"); Rename (nm "a/b") (nm "x/y"); Restart; Delete (nm "x/y/c"); Delete (nm "INBOX");
   Rename (nm "x") (nm "x/y/z")].

(* results: the placeholder, the subtree rename with superior creation, the kept subscribed leaf,
   INBOX and the rename into the own subtree refused *)
Example C17_example_results :
  snd (run init ex_history) = [OK; OK; OK; OK; OK; OK; OK; OK; NO; NO].
Proof. vm_compute. reflexivity. Qed.

(* the payload of a/b (two messages, UIDs 1 2, UIDNEXT 3) is at x/y, its child moved too and is a
   subscribed placeholder now; a is a placeholder without children; nothing is left at a/b *)
Example C17_example_tree :
  let T := abs (fst (run init ex_history)) in
  option_map (fun i => (i_uidnext i, i_msgs i)) (T (nm "x/y")) =
    Some (3, [{| m_uid := 1; m_cid := 1; m_flags := 4 |}; {| m_uid := 2; m_cid := 2; m_flags := 1 |}]) /\
  option_map (fun i => (i_placeholder i, i_subscribed i)) (T (nm "x/y/c")) = Some (true, true) /\
  option_map i_placeholder (T (nm "a")) = Some true /\ T (nm "a/b") = None /\ T (nm "a/b/c") = None.
Proof. vm_compute. repeat split. Qed.

(* LIST "" "%" : the parent says \HasChildren although its children are not part of the answer;
   LIST "" "InB*" finds INBOX; LSUB "x/" "*" lists the placeholder *)
Example C17_example_list :
  let st := fst (run init ex_history) in
  map (fun e => (string_of_list_ascii (e_name e), e_attrs e)) (list_cmd st (plain false [] (la "%"))) =
    [("INBOX", [HasNoChildren]); ("Junk", [Special "\Junk"; HasNoChildren]);
     ("Archive", [Special "\Archive"; HasNoChildren]); ("Sent Messages", [Special "\Sent"; HasNoChildren]);
     ("Drafts", [Special "\Drafts"; HasNoChildren]); ("Deleted Messages", [Special "\Trash"; HasNoChildren]);
     ("a", [Noselect; HasNoChildren]); ("x", [HasChildren])]%string /\
  map (fun e => string_of_list_ascii (e_name e)) (list_cmd st (plain false [] (la "InB*"))) = ["INBOX"%string] /\
  map (fun e => (string_of_list_ascii (e_name e), e_attrs e)) (list_cmd st (plain true (la "x/") (la "*"))) =
    [("x/y/c", [Noselect; HasNoChildren])]%string.
Proof. vm_compute. repeat split. Qed.

Example C17_example_glob :
  glob (la "a%c*") (la "abc/d") = true /\ glob (la "a%c") (la "a/c") = false /\
  glob (la "a.b") (la "axb") = false /\ glob (la "%/%") (la "a[b/c d") = true /\
  matches (la "*b") (la "a/b").
Proof.
  repeat split; try (vm_compute; reflexivity). apply (M_star (la "b") (la "a/") (la "b")).
  apply M_lit; [discriminate|discriminate|constructor].
Qed.
