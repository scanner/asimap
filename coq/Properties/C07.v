(* C07 — everything the server sends is well-formed IMAP.
   Only statements closed by `exact`; proofs live in Proofs/FmtP.v (and Proofs/BodyAlgP.v).

   Model/Fmt.v is the formatting code after the C07 fixes (one string encoder used for header
   values, parameters, mailbox names; CR/LF/NUL-free error texts; CRLF on every tagged line).
   Spec/RespTok.v is an independent reader written from RFC 3501.  Header values, mailbox
   names and error texts are arbitrary byte lists. *)
From Asimap Require Import Base.Res Model.BodyAlg Model.Fmt Spec.RespTok Proofs.FmtP Proofs.QuoteBridge.
From Asimap Require Gen.Quote.
Open Scope Z_scope.

(* decoding an encoded string gives back the value, for EVERY byte list (quoted or literal),
   and consumes nothing of what follows *)
Theorem C07_string_roundtrip : forall b rest, read_string (enc_string b ++ rest) = Some (b, rest).
Proof. exact read_string_enc. Qed.
Print Assumptions C07_string_roundtrip.

(* the encoder of the model IS utils.imap_string as regenerated from the source on every run
   (Gen/Quote.v), so the round trip holds of the generated function itself: it never raises, and a
   reader written from the RFC grammar gets back exactly the value and exactly the rest *)
Theorem C07_string_encoder_is_the_generated_one : forall b, Gen.Quote.imap_string b = Ok (enc_string b).
Proof. exact imap_string_is_enc_string. Qed.
Print Assumptions C07_string_encoder_is_the_generated_one.

Theorem C07_generated_string_roundtrip : forall b rest,
  exists w, Gen.Quote.imap_string b = Ok w /\ read_string (w ++ rest) = Some (b, rest).
Proof. exact generated_string_roundtrip. Qed.
Print Assumptions C07_generated_string_roundtrip.

(* unquote (quote b) = b for every byte list without CR/LF/NUL ... *)
Theorem C07_quote_roundtrip : forall b rest, needs_literal b = false ->
  read_quoted (quoted b ++ rest) = Some (b, rest).
Proof. exact read_quoted_quoted. Qed.
Print Assumptions C07_quote_roundtrip.

(* ... and otherwise the encoder chooses a literal whose count is exact *)
Theorem C07_literal_choice : forall b rest, needs_literal b = true ->
  enc_string b = literal b /\ read_literal (literal b ++ rest) = Some (b, rest).
Proof. exact literal_choice. Qed.
Print Assumptions C07_literal_choice.

(* the quoted form has no raw CR/LF/NUL and no unescaped DQUOTE or backslash *)
Theorem C07_no_raw_specials : forall b, needs_literal b = false ->
  exists q, enc_string b = 34 :: q ++ [34] /\ quoted_inner_ok q = true.
Proof. exact no_raw_specials. Qed.
Print Assumptions C07_no_raw_specials.

(* every encoded string, NIL, number, envelope, address list and parameter list is a balanced
   fragment: fed to the response automaton at any parenthesis depth it returns to that depth *)
Theorem C07_balanced_string : forall b, balanced (enc_string b).
Proof. exact balanced_enc_string. Qed.
Print Assumptions C07_balanced_string.

Theorem C07_balanced_envelope : forall e, balanced (envelope e).
Proof. exact balanced_envelope. Qed.
Print Assumptions C07_balanced_envelope.

Theorem C07_balanced_param_list : forall ps, balanced (param_list ps).
Proof. exact balanced_param_list. Qed.
Print Assumptions C07_balanced_param_list.

Theorem C07_balanced_literal : forall b, balanced (literal b).
Proof. exact balanced_literal. Qed.
Print Assumptions C07_balanced_literal.

(* structures assembled from balanced / atomic parts are balanced *)
Theorem C07_balanced_assembly : forall sep ps p,
  balanced sep -> Forall balanced ps -> balanced p ->
  balanced (join sep ps) /\ balanced (paren p).
Proof. exact balanced_assembly. Qed.
Print Assumptions C07_balanced_assembly.

(* the assembled lines are complete responses: the automaton consumes exactly the line (strings,
   literals by count, parentheses back at depth 0, terminating CRLF) and leaves the rest *)
Theorem C07_lines_complete_list : forall attrs name childinfo rest,
  Forall atomic attrs -> Forall no_lit childinfo ->
  run (StN 0) (list_line attrs name childinfo ++ rest) = Some rest.
Proof. exact list_line_complete. Qed.
Print Assumptions C07_lines_complete_list.

Theorem C07_lines_complete_lsub : forall attrs name rest,
  Forall atomic attrs -> run (StN 0) (lsub_line attrs name ++ rest) = Some rest.
Proof. exact lsub_line_complete. Qed.
Print Assumptions C07_lines_complete_lsub.

Theorem C07_lines_complete_status : forall name atts rest,
  Forall (fun a => atomic (fst a)) atts ->
  run (StN 0) (status_line name atts ++ rest) = Some rest.
Proof. exact status_line_complete. Qed.
Print Assumptions C07_lines_complete_status.

Theorem C07_lines_complete_search : forall nums rest,
  run (StN 0) (search_line nums ++ rest) = Some rest.
Proof. exact search_line_complete. Qed.
Print Assumptions C07_lines_complete_search.

Theorem C07_lines_complete_fetch : forall idx parts rest,
  Forall balanced parts -> run (StN 0) (fetch_line idx parts ++ rest) = Some rest.
Proof. exact fetch_line_complete. Qed.
Print Assumptions C07_lines_complete_fetch.

(* tagged lines: whatever the error text is, the line is the tag, the status, the text with
   CR/LF/NUL replaced, and CRLF — one complete line, nothing spills into the next response *)
Theorem C07_lines_complete_tagged : forall tag st text rest,
  no_forbidden tag -> no_forbidden st ->
  read_text_line (tagged_line tag st text ++ rest) =
  Some (tag ++ [SP] ++ st ++ [SP] ++ clean_text text, rest).
Proof. exact tagged_line_complete. Qed.
Print Assumptions C07_lines_complete_tagged.

(* the exception arm (text = " ".join(str(e).split())): complete for every exception text
   that has no NUL; a NUL would be passed through — no reachable instance is known, see the
   MANIFEST note *)
Theorem C07_lines_complete_exception : forall tag text rest,
  no_forbidden tag -> no_nul text ->
  read_text_line (exc_line tag text ++ rest) =
  Some (tag ++ [SP] ++ EXC_PREFIX ++ ws_collapse text, rest).
Proof. exact exc_line_complete. Qed.
Print Assumptions C07_lines_complete_exception.

Theorem C07_clean_text_identity : forall t, no_forbidden t -> clean_text t = t.
Proof. exact clean_id. Qed.
Print Assumptions C07_clean_text_identity.

(* the formatters before the fixes do not have these properties *)
Theorem C07_refuted_old_quote :
  exists b, needs_literal b = false /\ read_string (enc_string_old b) <> Some (b, []).
Proof. exact refuted_old_quote. Qed.
Print Assumptions C07_refuted_old_quote.

Theorem C07_refuted_old_list_line :
  exists name, needs_literal name = false /\ run (StN 0) (list_line_old [] name) = None.
Proof. exact refuted_old_list_line. Qed.
Print Assumptions C07_refuted_old_list_line.

Theorem C07_refuted_old_nocrlf :
  exists tag st text, no_forbidden tag /\ no_forbidden st /\ no_forbidden text /\
    read_text_line (tagged_line_old_nocrlf tag st text) = None.
Proof. exact refuted_old_nocrlf. Qed.
Print Assumptions C07_refuted_old_nocrlf.

(* non-vacuity: a hostile mailbox name in a LIST line, a hostile subject in a FETCH line *)
Example C07_example :
  let name := [97; 34; 98; 92; 99] in                      (* a DQUOTE b BACKSLASH c *)
  let subj := [120; 13; 10; 121] in                        (* x CR LF y -> literal *)
  Forall atomic [[92; 78; 111; 115; 101; 108; 101; 99; 116]] /\
  run (StN 0) (list_line [[92; 78; 111; 115; 101; 108; 101; 99; 116]] name [] ++ [42]) = Some [42] /\
  read_string (enc_string name) = Some (name, []) /\
  enc_string subj = [123; 52; 125; 13; 10; 120; 13; 10; 121] /\
  run (StN 0) (fetch_line 7 [fetch_part [85; 73; 68] (dec 3); enc_string subj]) = Some [].
Proof. repeat split; try (vm_compute; reflexivity). repeat constructor. Qed.
