(* C12 — an orderly restart changes nothing a client can see.  Statements only.
   Two ingredients are proved: (1) the persisted form of UID lists / message keys / sequences is
   lossless (utils.compact_sequence / expand_sequence on run lists, Model/Codec.v); (2) in the
   world model a restart only drops the sessions: every mailbox keeps UIDVALIDITY, UIDNEXT, the
   messages with their UIDs, order, content, dates and flags, and the invariants of C01/C02 still
   hold afterwards.  That the implementation's restart IS that step (every mutation is committed
   before the command completes) is decided by the correspondence/oracle runs of the check. *)
From Asimap Require Import Base.Res Model.Mbox Model.Codec Model.CodecText Proofs.CodecP Proofs.CodecTextP Proofs.MboxInv Proofs.MboxStep Proofs.MboxLe Proofs.CodecWorld.
From Coq Require Import Sorting.Sorted.
Open Scope Z_scope.

Theorem C12_persisted_lists_roundtrip : forall l, StronglySorted Z.lt l -> expand_runs (compact_runs l) = l.
Proof. exact expand_compact. Qed.
Print Assumptions C12_persisted_lists_roundtrip.

Theorem C12_runs_well_formed : forall l, Forall (fun r => fst r <= snd r) (compact_runs l).
Proof. exact compact_wf. Qed.
Print Assumptions C12_runs_well_formed.

(* the same at the level of the TEXT that is written to the database (decimal numbers, "a-b" ranges,
   commas; str.split, str.isdigit, int, sorted as Python does them, Model/CodecText.v): every strictly
   ascending list of non-negative integers comes back exactly, two lists never share a text, what comes
   back is always strictly ascending, and the text holds only digits, commas and dashes *)
Theorem C12_persisted_text_roundtrip : forall l,
  StronglySorted Z.lt l -> Forall (fun x => 0 <= x) l -> expand_text (compact_text l) = Some l.
Proof. exact expand_compact_text. Qed.
Print Assumptions C12_persisted_text_roundtrip.

(* compact_sequence sorts: in whatever order, and however often, the keys are handed over, what comes back
   is their set in ascending order *)
Theorem C12_persisted_text_any_order : forall l, Forall (fun x => 0 <= x) l ->
  expand_text (compact_text l) = Some (sorted_set l).
Proof. exact expand_compact_text_any. Qed.
Print Assumptions C12_persisted_text_any_order.

Theorem C12_persisted_text_injective : forall l1 l2,
  StronglySorted Z.lt l1 -> Forall (fun x => 0 <= x) l1 ->
  StronglySorted Z.lt l2 -> Forall (fun x => 0 <= x) l2 ->
  compact_text l1 = compact_text l2 -> l1 = l2.
Proof. exact compact_text_injective. Qed.
Print Assumptions C12_persisted_text_injective.

Theorem C12_expanded_text_ascending : forall s l, expand_text s = Some l -> StronglySorted Z.lt l.
Proof. exact expand_text_sorted. Qed.
Print Assumptions C12_expanded_text_ascending.

Theorem C12_persisted_text_alphabet : forall l, Forall (fun x => 0 <= x) l -> StronglySorted Z.lt l ->
  forallb seq_char (compact_text l) = true.
Proof. exact compact_text_alphabet. Qed.
Print Assumptions C12_persisted_text_alphabet.

(* ... and it applies to the UID list of every mailbox of every reachable world (after any history of
   commands, deliveries, packs and restarts): what is written to the database for it reads back as it *)
Theorem C12_reachable_uid_lists_persist : forall ps pn pd ops n b,
  get_box (fst (run (init_world ps pn pd) ops)) n = Some b ->
  expand_text (compact_text (uids b)) = Some (uids b).
Proof. exact reachable_uid_lists_persist. Qed.
Print Assumptions C12_reachable_uid_lists_persist.

Theorem C12_reachable_key_lists_persist : forall ps pn pd ops n b,
  get_box (fst (run (init_world ps pn pd) ops)) n = Some b ->
  expand_text (compact_text (map m_key (b_msgs b))) = Some (map m_key (b_msgs b)).
Proof. exact reachable_key_lists_persist. Qed.
Print Assumptions C12_reachable_key_lists_persist.

(* UID lists are strictly ascending in every reachable world (C02), so the round trip applies *)
Theorem C12_restart_keeps_mailboxes : forall w n b,
  get_box w n = Some b ->
  get_box (fst (step w ORestart)) n = Some (set_clients b []).
Proof. exact restart_box. Qed.
Print Assumptions C12_restart_keeps_mailboxes.

Theorem C12_restart_keeps_invariants : forall w, winv w -> winv (fst (step w ORestart)).
Proof. exact restart_inv. Qed.
Print Assumptions C12_restart_keeps_invariants.

Example C12_example :
  expand_runs (compact_runs [1; 3; 4; 5; 6; 9; 10]) = [1; 3; 4; 5; 6; 9; 10] /\
  compact_runs [1; 3; 4; 5; 6; 9; 10] = [(1, 1); (3, 6); (9, 10)].
Proof. split; vm_compute; reflexivity. Qed.

(* "1,3-6,9-10,120" and back; a malformed text raises *)
Example C12_text_example :
  compact_text [1; 3; 4; 5; 6; 9; 10; 120] = [49; 44; 51; 45; 54; 44; 57; 45; 49; 48; 44; 49; 50; 48] /\
  expand_text [49; 44; 51; 45; 54; 44; 57; 45; 49; 48; 44; 49; 50; 48] = Some [1; 3; 4; 5; 6; 9; 10; 120] /\
  expand_text [49; 45; 45; 50] = None /\ expand_text [32; 32] = Some [].
Proof. repeat split; vm_compute; reflexivity. Qed.
