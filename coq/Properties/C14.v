(* C14 — SEARCH returns exactly the messages that satisfy the criteria.
   Only statements closed by `exact`; proofs live in Proofs/SearchP.v.
     search_all   (Model/SearchM.v)  the code: parser tree, _match_* evaluators, Mailbox.search loop
     sem_search   (Spec/SearchSem.v) RFC 3501: positions 1..N whose message satisfies the program
     view         (Model/SearchM.v)  what FETCH shows of the state the search reads *)
From Asimap Require Import Base.Res Spec.SetSem Spec.SearchSem Model.SearchM Proofs.SearchP.
From Coq Require Import Sorting.Sorted.
Open Scope Z_scope.

(* every program (any nesting of NOT / OR / lists, every key), every mailbox:
   the answer is exactly the ascending list of sequence numbers of the messages
   that satisfy the denotation of the program *)
Theorem C14_exact : forall (p : prog) (mb : mailbox),
  search_all p mb false = sem_search p (map view mb).
Proof. exact search_exact. Qed.
Print Assumptions C14_exact.

Theorem C14_in : forall p mb n,
  In n (search_all p mb false) <-> holds p (map view mb) n = true.
Proof. exact search_in. Qed.
Print Assumptions C14_in.

Theorem C14_ascending : forall p mb, StronglySorted Z.lt (search_all p mb false).
Proof. exact search_sorted. Qed.
Print Assumptions C14_ascending.

(* UID SEARCH is SEARCH mapped through the UID table *)
Theorem C14_uid_map : forall p mb,
  search_all p mb true = map (uid_at (map view mb)) (search_all p mb false).
Proof. exact search_uid_map. Qed.
Print Assumptions C14_uid_map.

Theorem C14_uid_exact : forall p mb, search_all p mb true = sem_uid_search p (map view mb).
Proof. exact search_uid_exact. Qed.
Print Assumptions C14_uid_exact.

(* the evaluator on one message, any nesting depth (structural induction on the key) *)
Theorem C14_key : forall mb n m k,
  match_op (mkctx mb n m) (p_search_key k) = sat (map view mb) n (view m) k.
Proof. exact match_sat. Qed.
Print Assumptions C14_key.

(* Boolean algebra, as equality of answers (both SEARCH and UID SEARCH) *)
Theorem C14_not_not : forall k mb u, search_all [SNot (SNot k)] mb u = search_all [k] mb u.
Proof. exact search_not_not. Qed.
Print Assumptions C14_not_not.

Theorem C14_or_comm : forall a b mb u, search_all [SOr a b] mb u = search_all [SOr b a] mb u.
Proof. exact search_or_comm. Qed.
Print Assumptions C14_or_comm.

Theorem C14_de_morgan_or : forall a b mb u,
  search_all [SNot (SOr a b)] mb u = search_all [SNot a; SNot b] mb u.
Proof. exact search_de_morgan_or. Qed.
Print Assumptions C14_de_morgan_or.

Theorem C14_de_morgan_and : forall a b mb u,
  search_all [SNot (SParen [a; b])] mb u = search_all [SOr (SNot a) (SNot b)] mb u.
Proof. exact search_de_morgan_and. Qed.
Print Assumptions C14_de_morgan_and.

Theorem C14_paren : forall l mb u, search_all [SParen l] mb u = search_all l mb u.
Proof. exact search_paren. Qed.
Print Assumptions C14_paren.

(* NOT is the complement, OR the union, juxtaposition the intersection *)
Theorem C14_not_complement : forall k mb n,
  In n (search_all [SNot k] mb false) <->
  1 <= n <= Z.of_nat (List.length mb) /\ ~ In n (search_all [k] mb false).
Proof. exact search_not_complement. Qed.
Print Assumptions C14_not_complement.

Theorem C14_or_union : forall a b mb n,
  In n (search_all [SOr a b] mb false) <->
  In n (search_all [a] mb false) \/ In n (search_all [b] mb false).
Proof. exact search_or_union. Qed.
Print Assumptions C14_or_union.

Theorem C14_and_inter : forall p q mb n,
  In n (search_all (p ++ q) mb false) <->
  In n (search_all p mb false) /\ In n (search_all q mb false).
Proof. exact search_and_inter. Qed.
Print Assumptions C14_and_inter.

(* NEW / OLD / UN* are their defined combinations *)
Theorem C14_new : forall mb u, search_all [SNew] mb u = search_all [SRecent; SUnseen] mb u.
Proof. exact search_new. Qed.
Print Assumptions C14_new.

Theorem C14_old : forall mb u, search_all [SOld] mb u = search_all [SNot SRecent] mb u.
Proof. exact search_old. Qed.
Print Assumptions C14_old.

Theorem C14_un : forall k k', un_of k = Some k' ->
  forall mb u, search_all [k] mb u = search_all [SNot k'] mb u.
Proof. exact search_un. Qed.
Print Assumptions C14_un.

(* the set keys address exactly the denotation of Spec/SetSem.v (the one C15 is about) *)
Theorem C14_set_in : forall s mb n,
  In n (search_all [SMsgSet s] mb false) <->
  1 <= n <= Z.of_nat (List.length mb) /\ in_set (Z.of_nat (List.length mb)) s n.
Proof. exact search_set_in. Qed.
Print Assumptions C14_set_in.

Theorem C14_set_denote : forall s mb,
  search_all [SMsgSet s] mb false
  = filter (fun n => (1 <=? n) && (n <=? Z.of_nat (List.length mb)))
           (denote (Z.of_nat (List.length mb)) s).
Proof. exact search_set_denote. Qed.
Print Assumptions C14_set_denote.

Theorem C14_set_denote_ok : forall s mb,
  forallb (elt_ok (Z.of_nat (List.length mb))) s = true ->
  search_all [SMsgSet s] mb false = denote (Z.of_nat (List.length mb)) s.
Proof. exact search_set_denote_ok. Qed.
Print Assumptions C14_set_denote_ok.

Theorem C14_uid_set_in : forall s mb u,
  In u (search_all [SUid s] mb true) <->
  In u (map m_uid mb) /\ in_set (last (map m_uid mb) 0) s u.
Proof. exact search_uid_set_in. Qed.
Print Assumptions C14_uid_set_in.

(* the string primitive decides "is a substring of" *)
Theorem C14_contains_char : forall p l, contains p l = true <-> substring p l.
Proof. exact contains_spec. Qed.
Print Assumptions C14_contains_char.

(* ---- non-vacuity: a concrete mailbox and nested programs ---- *)
(* example data: Proofs/SearchP.v (ex_mb: three messages, UIDs 3 5 9) *)
Example C14_example_nested :
  search_all [SOr (SNot (SParen [SSeen; SKeyword "kw"])) (SSubject (ex_b "HELLO")); SNot (SMsgSet [ERange AStar (ANum 3)])]
             ex_mb false = [1; 2]
  /\ search_all [SNew] ex_mb true = [5]
  /\ search_all [SOld; SUid [ERange (ANum 4) AStar]] ex_mb true = []
  /\ search_all [SUid [ERange (ANum 4) AStar]; SUnkeyword "kw"; SLarger 50] ex_mb true = [5]
  /\ search_all [SText (ex_b "hello"); SSentSince 100] ex_mb false = [2]
  /\ search_all [SKeyword "Seen"] ex_mb false = []
  /\ search_all [SSeen; SAnswered] ex_mb false = [3].
Proof. vm_compute. repeat split. Qed.

Example C14_example_set_hyp :
  forallb (elt_ok (Z.of_nat (List.length ex_mb))) [ERange AStar (ANum 2); ENum 1] = true
  /\ search_all [SMsgSet [ERange AStar (ANum 2); ENum 1]] ex_mb false = [1; 2; 3].
Proof. vm_compute. split; reflexivity. Qed.

Example C14_example_un : un_of SUndraft = Some SDraft /\ un_of (SUnkeyword "kw") = Some (SKeyword "kw").
Proof. split; reflexivity. Qed.
