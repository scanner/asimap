(* C04 — message flags follow IMAP STORE/FETCH semantics exactly.  Statements only.
   Model: Model/Mbox.v keeps, per message, the MH sequence names it is in (as mbox.py does);
   the reported flags are their images under seq_to_flag.  `unseen` is the MH marker, the exact
   complement of `Seen`; everything else is a flag of the reference model. *)
From Asimap Require Import Base.Res Model.Mbox Proofs.FlagsP Proofs.MboxFlags.
From Asimap Require Import Proofs.KeywordsBridge.
From Asimap Require Gen.Flags Gen.Keywords.
Open Scope string_scope.

(* STORE +FLAGS / -FLAGS / FLAGS on a message is set union / difference / replacement (keeping
   \Recent) of the reference model, for every flag list without the marker and every message *)
Theorem C04_store_refines_reference : forall act fl m x,
  x <> "unseen" -> smem "unseen" fl = false ->
  smem x (m_seqs (apply_store act fl m)) = ref_store act fl (m_seqs m) x.
Proof. exact store_refines. Qed.
Print Assumptions C04_store_refines_reference.

(* \Recent can be neither set nor cleared by STORE *)
Theorem C04_recent_out_of_reach : forall act fl m,
  smem "Recent" fl = false -> smem "unseen" fl = false ->
  smem "Recent" (m_seqs (apply_store act fl m)) = smem "Recent" (m_seqs m).
Proof. exact store_keeps_recent. Qed.
Print Assumptions C04_recent_out_of_reach.

(* \Seen and `unseen` are exact complements on every message (known or still undelivered) of
   every mailbox in every reachable world *)
Theorem C04_seen_unseen_complement : forall ps pn pd ops n b,
  get_box (fst (run (init_world ps pn pd) ops)) n = Some b ->
  Forall (fun m => smem "Seen" (m_seqs m) = negb (smem "unseen" (m_seqs m))) (b_msgs b) /\
  Forall (fun m => smem "Seen" (m_seqs m) = negb (smem "unseen" (m_seqs m))) (b_disk b).
Proof. exact reachable_wP. Qed.
Print Assumptions C04_seen_unseen_complement.

(* a flag list accepted by STORE/APPEND never contains the marker or a reserved spelling, so the
   hypotheses above are met by every accepted command *)
Theorem C04_accepted_flags_have_no_marker : forall flags,
  existsb reserved_kw flags = false -> smem "unseen" (map flag_to_seq flags) = false.
Proof. exact no_unseen_seq. Qed.
Print Assumptions C04_accepted_flags_have_no_marker.

(* flags <-> sequence names is a bijection outside the reserved spellings *)
Theorem C04_flag_seq_roundtrip : forall f, reserved_kw f = false -> seq_to_flag (flag_to_seq f) = f.
Proof. exact flag_seq_roundtrip. Qed.
Print Assumptions C04_flag_seq_roundtrip.
Theorem C04_flag_to_seq_injective : forall f1 f2,
  reserved_kw f1 = false -> reserved_kw f2 = false -> flag_to_seq f1 = flag_to_seq f2 -> f1 = f2.
Proof. exact flag_to_seq_injective. Qed.
Print Assumptions C04_flag_to_seq_injective.

(* the two maps of the model are the ones of constants.py (regenerated on every run) *)
Theorem C04_maps_are_the_generated_ones :
  (forall f, Gen.Flags.flag_to_seq f = flag_to_seq f) /\ (forall s, Gen.Flags.seq_to_flag s = seq_to_flag s) /\
  (forall k, In k (map fst Gen.Flags.SYSTEM_FLAG_MAP) -> reserved_kw k = true).
Proof. exact (conj gen_flag_to_seq (conj gen_seq_to_flag gen_reserved)). Qed.
Print Assumptions C04_maps_are_the_generated_ones.

(* the keywords the model refuses are exactly the ones mbox.unstorable_keywords (regenerated from the
   source on every run, Gen/Keywords.v) returns: spelled like a reserved sequence, or with a ':' or a
   character outside ASCII *)
Theorem C04_reserved_keywords_are_the_generated_ones : forall flags,
  Gen.Keywords.unstorable_keywords flags = Ok (filter reserved_kw flags).
Proof. exact unstorable_keywords_is_reserved. Qed.
Print Assumptions C04_reserved_keywords_are_the_generated_ones.

(* hence a keyword the generated function lets through never turns into another flag on its way through
   the sequence names and back *)
Theorem C04_storable_keywords_roundtrip : forall f,
  Gen.Keywords.unstorable_keywords [f] = Ok [] -> seq_to_flag (flag_to_seq f) = f.
Proof. exact storable_keywords_roundtrip. Qed.
Print Assumptions C04_storable_keywords_roundtrip.

Example C04_example :
  let m := {| m_key := 1; m_uid := 1; m_cid := 1; m_date := 0; m_seqs := ["unseen"; "Recent"; "kw1"] |} in
  m_seqs (apply_store Replace (map flag_to_seq ["\Seen"; "\Flagged"]) m) = ["Seen"; "flagged"; "Recent"] /\
  m_seqs (apply_store Remove (map flag_to_seq ["\Seen"]) (apply_store Add (map flag_to_seq ["\Seen"; "kw2"]) m))
  = ["Recent"; "kw1"; "kw2"; "unseen"].
Proof. split; vm_compute; reflexivity. Qed.
