(* C09 — mailbox names cannot reach outside the user's mail directory.
   Only statements closed by `exact`; proofs live in Proofs/PathP.v.
   Model/Path.v mirrors posixpath.normpath/join, asimap.mbox.canonical_mbox_name (the validator
   added by fixes/C09-confine-mailbox-names.patch) and the paths each command derives;
   Spec/Inside.v says what "inside the mail directory" means (lexically, no symlinks). *)
From Asimap Require Import Base.Res Model.Path Spec.Inside Proofs.PathP.
Open Scope Z_scope.

(* Every path any command derives from its mailbox-name arguments is inside the mail directory:
   for EVERY command, EVERY name/reference/pattern (arbitrary strings) and every root. *)
Theorem C09_confined : forall root c ps,
  root_ok root = true -> cmd_paths root c = Ok ps -> Forall (inside root) ps.
Proof. exact cmd_paths_confined. Qed.
Print Assumptions C09_confined.

(* The same at the level of one name: whatever the validator accepts denotes a folder inside the
   root, and so does every prefix Mailbox.create makes a directory for. *)
Theorem C09_name_confined : forall root name c,
  root_ok root = true -> canonical_mbox_name name = Ok c ->
  inside root (folder_path root c) /\
  Forall (inside root) (map (folder_path root) (create_chain c)).
Proof. exact name_confined. Qed.
Print Assumptions C09_name_confined.

(* A name that — after the server's strip of one leading "/" — is absolute, or lexically leaves the
   directory it is relative to at any point (even if it comes back: "../Mail/x"), is refused ... *)
Theorem C09_refused_otherwise : forall name,
  leaves_root (strip1 name) = true -> canonical_mbox_name name = Err ENo.
Proof. exact canonical_refuses. Qed.
Print Assumptions C09_refused_otherwise.

(* ... in the words of the fix: a normal form that is absolute, is "..", or starts with "../" ... *)
Theorem C09_refused_normal_form : forall name,
  strip1 name <> [] -> escapes (normpath (strip1 name)) = true -> canonical_mbox_name name = Err ENo.
Proof. exact (fun name _ => canonical_refuses_normal_form name). Qed.
Print Assumptions C09_refused_normal_form.

(* ... and a command with such a name in any name position (RENAME: both; LIST/LSUB: reference,
   normalised pattern, and their concatenation) derives no path at all: it is refused. *)
Theorem C09_command_refused : forall root c n,
  In n (cmd_names c) -> leaves_root (strip1 n) = true -> cmd_paths root c = Err ENo.
Proof. exact cmd_paths_refused. Qed.
Print Assumptions C09_command_refused.

(* The validator refuses nothing else: it accepts exactly the names that stay inside. *)
Theorem C09_accept_iff : forall name,
  (exists c, canonical_mbox_name name = Ok c) <-> leaves_root (strip1 name) = false.
Proof. exact canonical_accept_iff. Qed.
Print Assumptions C09_accept_iff.

(* Canonical names are fixpoints of the validator (get_mailbox re-validates names that Mailbox.create,
   delete and rename already canonicalised; database rows are canonical names). *)
Theorem C09_canonical_idempotent : forall name c,
  canonical_mbox_name name = Ok c -> canonical_mbox_name c = Ok c.
Proof. exact canonical_idempotent. Qed.
Print Assumptions C09_canonical_idempotent.

(* After ANY history of commands, every row of the mailbox table (all that LIST/LSUB can show and
   LIST-STATUS can open) is a name whose folder is inside the mail directory. *)
Theorem C09_db_rows_inside : forall root ops r,
  root_ok root = true -> In r (db_run ops) -> inside root (folder_path root r).
Proof. exact db_rows_inside. Qed.
Print Assumptions C09_db_rows_inside.

(* normpath facts the validator relies on *)
Theorem C09_normpath_idempotent : forall s, normpath (normpath s) = normpath s.
Proof. exact normpath_idempotent. Qed.
Print Assumptions C09_normpath_idempotent.

(* all ".." components of a normal form are at its start ... *)
Theorem C09_normpath_dotdot_leading : forall s,
  exists k rest, split_slash (normpath s) = repeat s_dotdot k ++ rest /\ ~ In s_dotdot rest.
Proof. exact normpath_dotdot_leading. Qed.
Print Assumptions C09_normpath_dotdot_leading.

(* ... so a ".." never follows a component of another kind *)
Theorem C09_normpath_no_inner_dotdot : forall s pre c post,
  split_slash (normpath s) = pre ++ c :: s_dotdot :: post -> c = s_dotdot.
Proof. exact normpath_no_inner_dotdot. Qed.
Print Assumptions C09_normpath_no_inner_dotdot.

(* non-vacuity.  root = "/m"; "/a//b/./c/../d" is accepted as "a/b/d" and CREATE derives paths, all
   inside; "a/../../x" (normal form "../x"), "//abs" and ".." are refused; a path that is not inside. *)
Example C09_example :
  let root := [47; 109] in
  root_ok root = true /\
  canonical_mbox_name [47; 97; 47; 47; 98; 47; 46; 47; 99; 47; 46; 46; 47; 100] = Ok [97; 47; 98; 47; 100] /\
  (exists ps, cmd_paths root (CCreate [97; 47; 98]) = Ok ps /\ In [47; 109; 47; 97; 47; 98] ps /\ Forall (inside root) ps) /\
  leaves_root (strip1 [97; 47; 46; 46; 47; 46; 46; 47; 120]) = true /\
  normpath [97; 47; 46; 46; 47; 46; 46; 47; 120] = [46; 46; 47; 120] /\
  canonical_mbox_name [97; 47; 46; 46; 47; 46; 46; 47; 120] = Err ENo /\
  canonical_mbox_name [47; 47; 97; 98; 115] = Err ENo /\
  cmd_paths root (CRename [105; 110; 98; 111; 120] [46; 46]) = Err ENo /\
  cmd_paths root (CList [46; 46] [42]) = Err ENo /\
  insideb root [47; 109; 47; 46; 46; 47; 100; 101; 99; 111; 121] = false.
Proof.
  cbv zeta. repeat split; try (vm_compute; reflexivity).
  eexists; split; [vm_compute; reflexivity|]. split; [vm_compute; tauto|].
  apply cmd_paths_confined with (c := CCreate [97; 47; 98]); vm_compute; reflexivity.
Qed.

(* non-vacuity of the table invariant: CREATE a/b, then RENAME a c rewrites both rows; an escaping
   CREATE adds nothing. *)
Example C09_db_example :
  db_run [OpCreate [97; 47; 98]; OpCreate [46; 46; 47; 120]; OpRename [97] [99] (fun r => startswith r [97])]
  = [[99]; [99; 47; 98]].
Proof. vm_compute. reflexivity. Qed.
