(* C19 — the front-end relays exactly the commands the byte stream denotes.
   Statements only; proofs in Proofs/FrameP.v.  Model: Model/Frame.v (IMAPClient.start,
   IMAPSubprocessInterface.message, IMAPClientProxy.run, msgs_to_client); reference: Spec/FrameSpec.v.
   [c : cfg] carries MAX_INPUT_SIZE, the reader's line limit and int()'s digit limit - the theorems
   hold for every value of them - and which of the fixes/C19-*.patch are applied; the theorems
   about the front-end need fix_resync (C19-overlimit-literal-resync.patch), C19_long_line needs
   fix_longline (C19-long-line-bad.patch), the relay theorems are about the code with
   C19-relay-long-line.patch.  The *_pinned theorems show what the tree without the patches does.
   Segmentation into reads is not a parameter of the model: the loops only see the stream through
   readuntil/readexactly (trusted base: asyncio.StreamReader; measured under all segmentations by
   harness/props/c19.py). *)
From Asimap Require Import Base.Res Base.Bytes Spec.FrameSpec Model.Frame Proofs.FrameP.
Open Scope Z_scope.

(* Every stream that is a concatenation of commands - each with any number of synchronising and
   non-synchronising literals, arbitrary literal octets (CRLFs, command and announcement
   look-alikes), any digits for the counts, within the limits - is handed on as exactly the
   denoted commands, in order; the only octets written back are one continuation request per
   synchronising literal; the loop then waits for more input.  No bound on counts or sizes.
   (Holds with and without the patches: no refusal is involved.) *)
Theorem C19_relay_exact : forall c,
  0 <= rlimit c -> forall cmds,
  Forall (wf_cmd (maxin c) (rlimit c) (maxdigits c)) cmds ->
  let o := frame_loop c (List.concat (map render cmds)) in
  msgs_of o = map denote cmds /\
  writes_of o = flat_map (fun cm => repeat CONT (sync_lits (c_lits cm))) cmds /\
  snd o = Eof.
Proof. exact commands_exact. Qed.
Print Assumptions C19_relay_exact.

(* The same with everything the property lists mixed in - blank lines, over-limit literals of both
   kinds (a LITERAL+ client sends the octets anyway), commands over the limit by accumulation or
   by their last line: the full trace, in order, is the expected one (continuation requests,
   commands handed on, one BAD per refusal) and the loop restarts cleanly after every refusal. *)
Theorem C19_stream_exact : forall c,
  fix_resync c = true -> 0 <= rlimit c -> forall items,
  Forall (wf_item (maxin c) (rlimit c) (maxdigits c)) items ->
  frame_loop c (List.concat (map render_item items)) = (flat_map item_events items, Eof).
Proof. exact items_run_eof. Qed.
Print Assumptions C19_stream_exact.

(* Staying in sync: exactly the commands of the stream are handed on - none dropped after a
   refusal, none made out of literal octets. *)
Theorem C19_resync : forall c,
  fix_resync c = true -> 0 <= rlimit c -> forall items,
  Forall (wf_item (maxin c) (rlimit c) (maxdigits c)) items ->
  let o := frame_loop c (List.concat (map render_item items)) in
  msgs_of o = commands_of items /\ writes_of o = flat_map item_writes items /\ snd o = Eof.
Proof. exact resync. Qed.
Print Assumptions C19_resync.

(* A line longer than the reader accepts (64 KiB): refused with a BAD and the connection is closed;
   what came before it is unaffected, nothing behind it is interpreted. *)
Theorem C19_long_line : forall c,
  fix_resync c = true -> forall items l rest, fix_longline c = true ->
  Forall (wf_item (maxin c) (rlimit c) (maxdigits c)) items -> nocrlf l = true -> rlimit c < blen l ->
  frame_loop c (List.concat (map render_item items) ++ l ++ CRLF ++ rest) =
    (flat_map item_events items ++ [Wr BAD_LINE], Closed).
Proof. exact long_line_closes. Qed.
Print Assumptions C19_long_line.

(* For EVERY byte stream: the loop ends (the fuel never runs out) and whatever is handed on is
   non-empty and within MAX_INPUT_SIZE. *)
Theorem C19_handed_on_within_limit : forall c s,
  snd (frame_loop c s) <> NoFuel /\
  Forall (fun m => m <> [] /\ blen m <= maxin c) (msgs_of (frame_loop c s)).
Proof. exact (fun c s => conj (proj1 (frame_loop_good c s)) (msgs_of_good c _ (frame_loop_good c s))). Qed.
Print Assumptions C19_handed_on_within_limit.

(* IPC: the de-framer of the user process inverts the "{len}\n" framing, for any number of messages
   (the first one not being the in-band POP3 marker) *)
Theorem C19_deframe_inverse : forall mx ms,
  Forall (fun m => blen m <= mx) ms ->
  match ms with m :: _ => bytes_eqb m POP3_MARK = false | [] => True end ->
  deframe mx (List.concat (map frame ms)) = (ms, DEof).
Proof. exact deframe_inverse. Qed.
Print Assumptions C19_deframe_inverse.

(* ... hence for EVERY client byte stream the user process de-frames exactly what the front-end
   handed on (both sides use the same MAX_INPUT_SIZE: pinned) *)
Theorem C19_ipc_roundtrip : forall c s,
  match msgs_of (frame_loop c s) with m :: _ => bytes_eqb m POP3_MARK = false | [] => True end ->
  deframe (maxin c) (List.concat (map frame (msgs_of (frame_loop c s)))) = (msgs_of (frame_loop c s), DEof).
Proof. exact ipc_roundtrip. Qed.
Print Assumptions C19_ipc_roundtrip.

(* Responses: every stream of CRLF-terminated chunks, a chunk's text being a CRLF-free run of any
   length (also beyond the reader's limit), reaches the client unchanged and in order *)
Theorem C19_response_identity : forall lim,
  0 <= lim -> forall ls, Forall (fun l => nocrlf l = true) ls ->
  List.concat (fst (relay lim true (render_lines ls))) = render_lines ls /\
  snd (relay lim true (render_lines ls)) = Eof.
Proof. exact relay_identity. Qed.
Print Assumptions C19_response_identity.

(* ... and for ANY response stream what is passed on is a prefix of it *)
Theorem C19_response_prefix : forall lim f s, exists tail, s = List.concat (fst (relay_loop lim true f s)) ++ tail.
Proof. exact relay_prefix. Qed.
Print Assumptions C19_response_prefix.

(* the literal regex of the source is the announcement of the reference, both ways *)
Theorem C19_regex_complete : forall pre ds plus, digits_ok ds -> re_search (pre ++ announce ds plus) = Some (ds, plus).
Proof. exact re_search_announce. Qed.
Print Assumptions C19_regex_complete.
Theorem C19_regex_sound : forall t ds plus,
  lit_match t = Some (ds, plus) -> exists pre, t = pre ++ announce ds plus /\ digits_ok ds.
Proof.
  exact (fun t ds plus H => match lit_match_rev_sound (rev t) ds plus H with
                            | ex_intro _ pre (conj E D) => ex_intro _ pre (conj (eq_trans (eq_sym (rev_involutive t)) E) D)
                            end).
Qed.
Print Assumptions C19_regex_sound.

(* ---- the tree without the patches (D15 and relatives): the statements above fail ---- *)
(* after an over-limit synchronising literal the next command is swallowed *)
Theorem C19_resync_refuted_pinned :
  exists items, Forall (wf_item 20 65536 4300) items /\
    msgs_of (frame_loop (pinned_cfg 20) (List.concat (map render_item items))) <> commands_of items.
Proof. exact resync_refuted_pinned. Qed.
Print Assumptions C19_resync_refuted_pinned.
(* octets of a refused LITERAL+ are handed on as a command *)
Theorem C19_literal_injection_pinned :
  exists items, Forall (wf_item 20 65536 4300) items /\ commands_of items = [] /\
    In (B "z9 LOGOUT") (msgs_of (frame_loop (pinned_cfg 20) (List.concat (map render_item items)))).
Proof. exact literal_injection_pinned. Qed.
Print Assumptions C19_literal_injection_pinned.
(* a response chunk longer than the reader's limit ends the relay *)
Theorem C19_response_refuted_pinned :
  exists lim ls, 0 <= lim /\ Forall (fun l => nocrlf l = true) ls /\
    List.concat (fst (relay lim false (render_lines ls))) <> render_lines ls.
Proof. exact relay_refuted_pinned. Qed.
Print Assumptions C19_response_refuted_pinned.

(* non-vacuity: a LOGIN with a synchronising and a non-synchronising literal (whose octets are
   CRLF + "z LOGOUT"), a blank line, an APPEND refused for a 50-octet LITERAL+ full of command
   look-alikes, a NOOP - limit 40: well-formed, and handled as the theorems say *)
Example C19_example :
  Forall (wf_item 40 65536 4300) ex_items /\
  frame_loop (fixed_cfg 40 65536) (List.concat (map render_item ex_items)) =
    ([Wr CONT; Msg (denote ex_login); Wr BAD_EMPTY; Wr BAD_LIT; Msg (B "a3 NOOP")], Eof).
Proof. exact (conj ex_items_wf ex_items_run). Qed.
