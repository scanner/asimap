(* C16 — message data items are mutually consistent and faithful to what was stored.
   Only statements closed by `exact`; proofs live in Proofs/BodyAlgP.v.

   Every theorem is about ALL messages: `msg` is any type, `hdr`/`body` are any functions
   (the email generator as an oracle: header block incl. the blank line, and the rest).  The
   one hypothesis about the oracle — the header block ends in CRLF — and the decomposition
   itself are measured on every generated and fixture message by harness/props/c16.py. *)
From Asimap Require Import Base.Res Model.BodyAlg Spec.RespTok Proofs.BodyAlgP.
Open Scope Z_scope.

(* RFC822.SIZE is the octet count of BODY[] *)
Theorem C16_size : forall (msg : Type) (hdr body : msg -> list Z) (m : msg),
  msg_size msg hdr body m = blen (body_data msg hdr body SFull None m) /\
  fetch_item msg hdr body IRfc822Size m = dec (blen (body_data msg hdr body SFull None m)).
Proof. exact size_both. Qed.
Print Assumptions C16_size.

(* RFC822, RFC822.HEADER, RFC822.TEXT are their BODY[...] counterparts, octet for octet *)
Theorem C16_rfc822_equals_body : forall (msg : Type) (hdr body : msg -> list Z) (m : msg),
  fetch_item msg hdr body IRfc822 m = fetch_item msg hdr body (IBody SFull None) m /\
  fetch_item msg hdr body IRfc822Header m = fetch_item msg hdr body (IBody SHeader None) m /\
  fetch_item msg hdr body IRfc822Text m = fetch_item msg hdr body (IBody SText None) m.
Proof. exact rfc822_items. Qed.
Print Assumptions C16_rfc822_equals_body.

(* <o.n> is exactly that slice: octet i of the partial is octet o+i of the whole item for
   i < n, and there is nothing else; for every section, offset and count *)
Theorem C16_partial_is_slice : forall (msg : Type) (hdr body : msg -> list Z) (m : msg) s o n i,
  0 <= o -> 0 <= n ->
  nth_error (body_data msg hdr body s (Some (o, n)) m) i =
  if Z.of_nat i <? n then nth_error (body_data msg hdr body s None m) (Z.to_nat o + i) else None.
Proof. exact partial_is_slice. Qed.
Print Assumptions C16_partial_is_slice.

Theorem C16_partial_firstn_skipn : forall (msg : Type) (hdr body : msg -> list Z) (m : msg) s o n,
  0 <= o -> 0 <= n ->
  body_data msg hdr body s (Some (o, n)) m =
  firstn (Z.to_nat n) (skipn (Z.to_nat o) (body_data msg hdr body s None m)).
Proof. exact partial_is_firstn_skipn. Qed.
Print Assumptions C16_partial_firstn_skipn.

(* BODY[HEADER] followed by BODY[TEXT] is BODY[] — exactly when the message has a body
   (known finding C16-D12: for an empty body both items get a CRLF) *)
Theorem C16_header_text_concat : forall (msg : Type) (hdr body : msg -> list Z),
  (forall m, ends_crlf (hdr m) = true) ->
  forall m,
    body_data msg hdr body SHeader None m ++ body_data msg hdr body SText None m
      = body_data msg hdr body SFull None m
    <-> body m <> [].
Proof. exact header_text_iff. Qed.
Print Assumptions C16_header_text_concat.

(* ... and what is sent instead for an empty body: two octets too many *)
Theorem C16_header_text_empty_body : forall (msg : Type) (hdr body : msg -> list Z),
  (forall m, ends_crlf (hdr m) = true) ->
  forall m, body m = [] ->
    body_data msg hdr body SHeader None m ++ body_data msg hdr body SText None m
      = body_data msg hdr body SFull None m ++ CRLF.
Proof. exact header_text_empty. Qed.
Print Assumptions C16_header_text_empty_body.

Theorem C16_refuted_empty_body :
  exists m : list Z * list Z,
    ends_crlf (ex_hdr m) = true /\ ex_body m = [] /\
    body_data _ ex_hdr ex_body SHeader None m ++ body_data _ ex_hdr ex_body SText None m
      <> body_data _ ex_hdr ex_body SFull None m.
Proof. exact refuted_empty_body. Qed.
Print Assumptions C16_refuted_empty_body.

(* the announced octet count of a literal is the length of its data, for every byte list:
   an independent reader gets back exactly the data and exactly the rest of the stream *)
Theorem C16_literal_count : forall (l rest : list Z),
  read_literal (literal l ++ rest) = Some (l, rest).
Proof. exact read_literal_literal. Qed.
Print Assumptions C16_literal_count.

Theorem C16_fetch_body_reads : forall (msg : Type) (hdr body : msg -> list Z) (m : msg) s p rest,
  read_literal (fetch_body msg hdr body s p m ++ rest) = Some (body_data msg hdr body s p m, rest).
Proof. exact fetch_body_reads. Qed.
Print Assumptions C16_fetch_body_reads.

(* every unsliced item ends in CRLF *)
Theorem C16_items_end_crlf : forall (msg : Type) (hdr body : msg -> list Z) (m : msg) s,
  ends_crlf (body_data msg hdr body s None m) = true.
Proof. exact whole_item_ends_crlf. Qed.
Print Assumptions C16_items_end_crlf.

(* non-vacuity: a concrete message with a body meets the hypothesis and the equations *)
Example C16_example :
  let m := ([83; 58; 32; 120; 13; 10; 13; 10], [104; 105]) in   (* "S: x" CRLF CRLF "hi" *)
  ends_crlf (ex_hdr m) = true /\ ex_body m <> [] /\
  body_data _ ex_hdr ex_body SHeader None m ++ body_data _ ex_hdr ex_body SText None m
    = body_data _ ex_hdr ex_body SFull None m /\
  fetch_body _ ex_hdr ex_body SText (Some (1, 5)) m = [123; 51; 125; 13; 10; 105; 13; 10] /\
  msg_size _ ex_hdr ex_body m = 12%N.
Proof. repeat split; try (vm_compute; reflexivity). discriminate. Qed.
